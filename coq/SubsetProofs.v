(* C02 / C01: the regularisation subset.  The solvers receive the unknowns over which the norm is minimised as a LIST of
   indexes (min_x(n, list)).  The selection matrix S = diag [i in list] depends on the list only as a set: repeated indexes
   and the order are immaterial (AdjCholDec and AdjEnvelope used the raw list before the repair and gave other cofactors for
   {1,1,2,2} than for {1,2}). *)
From mathcomp Require Import all_ssreflect ssralg ssrnum matrix.
Import GRing.Theory.
Local Open Scope ring_scope.

Section Subset.
Variable F : realFieldType.
Variable n : nat.

Definition selmx (l : seq 'I_n) : 'M[F]_n := \matrix_(i, j) ((i == j) && (i \in l))%:R.

Lemma selmx_eq_mem (l1 l2 : seq 'I_n) : l1 =i l2 -> selmx l1 = selmx l2.
Proof. by move=> E; apply/matrixP=> i j; rewrite !mxE E. Qed.

Lemma selmx_undup (l : seq 'I_n) : selmx (undup l) = selmx l.
Proof. by apply: selmx_eq_mem => i; rewrite mem_undup. Qed.

Lemma selmx_perm (l1 l2 : seq 'I_n) : perm_eq l1 l2 -> selmx l1 = selmx l2.
Proof. by move=> P; apply: selmx_eq_mem; apply: perm_mem. Qed.

(* diagonal: the quadratic form of the selection is the sum of squares over the selected unknowns, each counted once *)
Lemma selmxE (l : seq 'I_n) : selmx l = diag_mx (\row_i (i \in l)%:R).
Proof. by apply/matrixP=> i j; rewrite !mxE; case: (i == j); rewrite ?mulr1n. Qed.

Lemma selmx_sym (l : seq 'I_n) : (selmx l)^T = selmx l.
Proof. by rewrite selmxE tr_diag_mx. Qed.

Lemma selmx_idem (l : seq 'I_n) : selmx l *m selmx l = selmx l.
Proof.
rewrite selmxE mulmx_diag; congr diag_mx; apply/rowP=> i.
by rewrite !mxE -natrM mulnb andbb.
Qed.
End Subset.
