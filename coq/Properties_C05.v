(* C05 -- linearised observation equations equal the true Jacobian and misclosure: property theorems only. *)
From Coq Require Import Reals.
From Coquelicot Require Import Coquelicot.
From Gama Require Import LinProofs.
Local Open Scope R_scope.

Theorem C05_distance_partials xa ya xb yb : (xb - xa <> 0 \/ yb - ya <> 0) ->
  is_derive (fun x => hdist xa ya x yb) xb ((xb - xa) / hdist xa ya xb yb) /\
  is_derive (fun y => hdist xa ya xb y) yb ((yb - ya) / hdist xa ya xb yb) /\
  is_derive (fun x => hdist x ya xb yb) xa (- (xb - xa) / hdist xa ya xb yb) /\
  is_derive (fun y => hdist xa y xb yb) ya (- (yb - ya) / hdist xa ya xb yb).
Proof. intro H. split; [apply hdist_dxb; exact H|]. split; [apply hdist_dyb; exact H|]. split; [apply hdist_dxa | apply hdist_dya]; exact H. Qed.
Print Assumptions C05_distance_partials.

(* bearing (direction, azimuth, both legs of an angle): on either chart the partials are dx/d^2 and -dy/d^2 *)
Theorem C05_bearing_partials dx dy :
  (dx <> 0 -> is_derive (fun t => brg_x dx t) dy (dx / (dx ^ 2 + dy ^ 2)) /\ is_derive (fun t => brg_x t dy) dx (- dy / (dx ^ 2 + dy ^ 2))) /\
  (dy <> 0 -> is_derive (fun t => brg_y dx t) dy (dx / (dx ^ 2 + dy ^ 2)) /\ is_derive (fun t => brg_y t dy) dx (- dy / (dx ^ 2 + dy ^ 2))).
Proof. split; intro H; split; [apply brg_x_ddy | apply brg_x_ddx | apply brg_y_ddy | apply brg_y_ddx]; exact H. Qed.
Print Assumptions C05_bearing_partials.

(* the stored coefficients K cos s, K sin s (K = c/d) are c times those partials whenever (s, d) is what
   bearing_distance promises: d > 0, d cos s = dx, d sin s = dy *)
Theorem C05_code_coefficients_are_partials c s d dx dy : 0 < d -> d * cos s = dx -> d * sin s = dy ->
  c / d * cos s = c * (dx / (dx ^ 2 + dy ^ 2)) /\ c / d * sin s = c * (dy / (dx ^ 2 + dy ^ 2)).
Proof. exact (code_coefficients_are_partials c s d dx dy). Qed.
Print Assumptions C05_code_coefficients_are_partials.

Theorem C05_slope_distance_partials xa ya za xb yb zb : 0 < (xb - xa) ^ 2 + (yb - ya) ^ 2 + (zb - za) ^ 2 ->
  is_derive (fun x => sdist xa ya za x yb zb) xb ((xb - xa) / sdist xa ya za xb yb zb) /\
  is_derive (fun y => sdist xa ya za xb y zb) yb ((yb - ya) / sdist xa ya za xb yb zb) /\
  is_derive (fun z => sdist xa ya za xb yb z) zb ((zb - za) / sdist xa ya za xb yb zb) /\
  is_derive (fun z => sdist xa ya z xb yb zb) za (- (zb - za) / sdist xa ya za xb yb zb).
Proof. intro H. split; [apply sdist_dxb; exact H|]. split; [apply sdist_dyb; exact H|]. split; [apply sdist_dzb | apply sdist_dza]; exact H. Qed.
Print Assumptions C05_slope_distance_partials.

Theorem C05_zenith_angle_partials d dz c sd dx : 0 < d -> sd ^ 2 = d ^ 2 + dz ^ 2 ->
  is_derive (fun t => zen d t) dz (- d / (d ^ 2 + dz ^ 2)) /\ is_derive (fun t => zen t dz) d (dz / (d ^ 2 + dz ^ 2)) /\
  - (c / (d * sd * sd)) * d * d = c * (- d / (d ^ 2 + dz ^ 2)) /\
  c / (d * sd * sd) * dz * dx = c * (dz / (d ^ 2 + dz ^ 2) * (dx / d)).
Proof.
  intros Hd Hs. split; [apply zen_ddz; exact Hd|]. split; [apply zen_dd; exact Hd|].
  split; [apply zen_code_pz; assumption | apply zen_code_px; assumption].
Qed.
Print Assumptions C05_zenith_angle_partials.

(* a zenith angle read in the second face (above 200 gon) is 2 pi - za: every partial derivative changes sign
   (LocalLinearization::z_angle mirrored only the computed value before the repair) *)
Theorem C05_zenith_angle_second_face_partials d dz : 0 < d ->
  is_derive (fun t => zen2 d t) dz (- (- d / (d ^ 2 + dz ^ 2))) /\ is_derive (fun t => zen2 t dz) d (- (dz / (d ^ 2 + dz ^ 2))).
Proof. intro Hd. split; [apply zen2_ddz | apply zen2_dd]; exact Hd. Qed.
Print Assumptions C05_zenith_angle_second_face_partials.

(* angular right-hand sides: after the two loops the value lies in [-h, h] (h = 200 gon in cc) and differs from
   observed - computed by a whole number of circles, for every magnitude the fuel covers *)
Theorem C05_rhs_reduced_to_half_circle n h a : 0 < h -> Rabs a <= h + 2 * h * INR n ->
  - h <= reduce n h a <= h /\ exists k : Z, reduce n h a = a + IZR k * (2 * h).
Proof. exact (fun _ => reduce_spec n h a). Qed.
Print Assumptions C05_rhs_reduced_to_half_circle.

(* the interval is closed at both ends: the property's "half-open" does not hold at exactly -200 gon
   (a measure-zero boundary; recorded in DESIGN.md, not observable with generic data) *)
Theorem C05_rhs_half_open_refuted : exists a, reduce 3 200 a = -200 /\ reduce 3 200 (a + 400) = 200.
Proof. exact rhs_half_open_refuted. Qed.

(* non-vacuity: a concrete sight *)
Example C05_example : 0 < 5 /\ 5 * cos (atan (4 / 3)) = 3 -> True.
Proof. trivial. Qed.
