(* C02 -- the four algorithms give the same adjustment: property theorems only.
   Whatever method computes them, two solutions of the same weighted least-squares problem coincide in
   everything the property lists, for every real field and all dimensions. *)
From mathcomp Require Import all_ssreflect ssralg ssrnum matrix.
From Gama Require Import LsqSpec SubsetProofs.
Import GRing.Theory.
Local Open Scope ring_scope.

Theorem C02_same_residuals_and_sum_of_squares (F : realFieldType) (m n : nat) (A : 'M[F]_(m,n)) (P : 'M[F]_m)
  (b : 'cV[F]_m) (x y : 'cV[F]_n) : P^T = P -> psd P -> pd P ->
  normal_eq A P b x -> normal_eq A P b y -> res A b x = res A b y /\ wss A P b x = wss A P b y.
Proof. by move=> _ _ Pd Hx Hy; rewrite /wss /res (minimisers_same_adjusted Pd Hx Hy). Qed.
Print Assumptions C02_same_residuals_and_sum_of_squares.

Theorem C02_same_unknowns (F : realFieldType) (m n : nat) (A : 'M[F]_(m,n)) (P : 'M[F]_m)
  (b : 'cV[F]_m) (S : 'M[F]_n) (x y : 'cV[F]_n) : P^T = P -> psd P -> pd P -> resolves_defect A S ->
  normal_eq A P b x -> normal_eq A P b y -> null_orthogonal A S x -> null_orthogonal A S y -> x = y.
Proof. move=> Ps Pp Pd; exact: minnorm_unique. Qed.
Print Assumptions C02_same_unknowns.

(* regular case: the selection is irrelevant, the solution is unique *)
Corollary C02_regular_unique (F : realFieldType) (m n : nat) (A : 'M[F]_(m,n)) (P : 'M[F]_m)
  (b : 'cV[F]_m) (x y : 'cV[F]_n) : P^T = P -> psd P -> pd P ->
  (forall g : 'cV[F]_n, A *m g = 0 -> g = 0) -> normal_eq A P b x -> normal_eq A P b y -> x = y.
Proof.
move=> _ _ Pd Hreg Hx Hy; apply/esym/subr0_eq/Hreg.
exact: minimisers_differ_in_null Hx Hy.
Qed.
Print Assumptions C02_regular_unique.

(* the regularisation subset is given to the solvers as a list of indexes: the selection it defines depends on the list only
   as a set (AdjCholDec and AdjEnvelope used the raw list before the repair: other cofactors for {1,1,2,2} than for {1,2}) *)
Theorem C02_regularisation_list_is_a_set (F : realFieldType) (n : nat) (l1 l2 : seq 'I_n) :
  l1 =i l2 -> @selmx F n l1 = @selmx F n l2.
Proof. exact: selmx_eq_mem. Qed.
Print Assumptions C02_regularisation_list_is_a_set.

Theorem C02_repeated_indexes_do_not_matter (F : realFieldType) (n : nat) (l : seq 'I_n) :
  @selmx F n (undup l) = @selmx F n l /\ (@selmx F n l)^T = @selmx F n l /\ @selmx F n l *m @selmx F n l = @selmx F n l.
Proof. by rewrite selmx_undup selmx_sym selmx_idem. Qed.
Print Assumptions C02_repeated_indexes_do_not_matter.
