(* Proofs about the move-to-front cache model and the memo cache built on it. *)
From Coq Require Import List Arith Permutation.
From Gama Require Import CacheModel.
Import ListNotations.

Lemma extract_spec k l :
  match extract k l with
  | Some (b, rest) => exists l1 l2, l = l1 ++ (k, b) :: l2 /\ rest = l1 ++ l2 /\ ~ In k (map fst l1)
  | None => ~ In k (map fst l)
  end.
Proof.
  induction l as [|[k' b'] l IH]; cbn; [tauto|].
  destruct (Nat.eqb_spec k k') as [<-|Hk]; [exists [], l; auto|].
  destruct (extract k l) as [[b rest]|]; [|intuition congruence].
  destruct IH as (l1 & l2 & -> & -> & Hn). exists ((k', b') :: l1), l2. cbn. intuition.
Qed.

Lemma extract_in k l : NoDup (map fst l) -> forall b, In (k, b) l -> exists rest, extract k l = Some (b, rest).
Proof.
  intros Hnd b Hin. pose proof (extract_spec k l) as E. destruct (extract k l) as [[b' rest]|].
  - (* (k, b') stands in l too, and NoDup and In do not see where *)
    destruct E as (l1 & l2 & -> & _). rewrite <- Permutation_middle in Hnd, Hin. apply NoDup_cons_iff in Hnd.
    destruct Hin as [[= ->]|Hin]; [eauto|]. destruct Hnd as [[] _]. exact (in_map fst _ _ Hin).
  - destruct E. exact (in_map fst _ _ Hin).
Qed.

(* the four ways a request can go: the key is found and moved to the front; it is absent and takes the next
   free buffer; it is absent, nothing is free, and the least recently used entry gives up its buffer; N = 0 *)
Inductive get_result (s : mtf) (k : nat) : mtf * nat * bool -> Prop :=
| GetHit l1 b l2 : used s = l1 ++ (k, b) :: l2 -> ~ In k (map fst l1) ->
    get_result s k ({| used := (k, b) :: l1 ++ l2; free := free s |}, b, true)
| GetFree b fr : ~ In k (map fst (used s)) -> free s = b :: fr ->
    get_result s k ({| used := (k, b) :: used s; free := fr |}, b, false)
| GetEvict l k0 b : ~ In k (map fst (used s)) -> free s = [] -> used s = l ++ [(k0, b)] ->
    get_result s k ({| used := (k, b) :: l; free := [] |}, b, false)
| GetNone : used s = [] -> free s = [] -> get_result s k (s, 0, false).

Lemma mtf_get_spec s k : get_result s k (mtf_get s k).
Proof.
  unfold mtf_get. pose proof (extract_spec k (used s)) as E.
  destruct (extract k (used s)) as [[b rest]|].
  - destruct E as (l1 & l2 & Hu & -> & Hn). now constructor.
  - destruct (free s) as [|b fr] eqn:Ef; [|now constructor].
    (* nothing free: the model reads the entry to evict off the reversed list *)
    destruct (rev (used s)) as [|[k0 b] rr] eqn:Er;
      apply (f_equal (@rev _)) in Er; rewrite rev_involutive in Er.
    + now constructor.
    + now apply GetEvict with k0.
Qed.

(* no key is bound twice, and the buffers in use and the free ones together are buf_[0..N-1], each once *)
Definition wf (n : nat) (s : mtf) : Prop :=
  NoDup (map fst (used s)) /\ Permutation (map snd (used s) ++ free s) (seq 0 n).

Lemma wf_init n : wf n (mtf_init n).
Proof. split; [constructor | apply Permutation_refl]. Qed.

Lemma wf_get n s k : wf n s -> wf n (fst (fst (mtf_get s k))).
Proof.
  unfold wf. intros [Hk Hp].
  destruct (mtf_get_spec s k) as [l1 b l2 Hu Hn | b fr Hn Hf | l k0 b Hn Hf Hu | _ _]; cbn [fst used free].
  - (* wf does not see the order of used: the rewrites by a permutation go under map, ++, NoDup *)
    rewrite Hu, <- Permutation_middle in Hk, Hp. exact (conj Hk Hp).
  - rewrite Hf in Hp. split; [now constructor | rewrite <- Hp; apply Permutation_middle].
  - (* the evicted entry hands its buffer to k *)
    rewrite Hu, <- Permutation_cons_append in Hk, Hp, Hn. rewrite Hf in Hp.
    apply NoDup_cons_iff in Hk. cbn in Hn. split; [apply NoDup_cons|]; tauto.
  - exact (conj Hk Hp).
Qed.

Lemma wf_fold n ks : forall s, wf n s -> wf n (fold_left (fun s k => fst (fst (mtf_get s k))) ks s).
Proof. induction ks as [|k ks IH]; intros s Hs; [exact Hs | exact (IH _ (wf_get n s k Hs))]. Qed.

Lemma wf_erase n s : wf n s -> wf n (mtf_erase s).
Proof. intros [Hk Hp]. split; [constructor | exact Hp]. Qed.

Lemma nodup_bufs n s : wf n s -> NoDup (map snd (used s) ++ free s).
Proof. intros [_ Hp]. eapply Permutation_NoDup; [apply Permutation_sym; exact Hp | apply seq_NoDup]. Qed.

Lemma get_hit s k b : NoDup (map fst (used s)) -> In (k, b) (used s) -> snd (fst (mtf_get s k)) = b /\ snd (mtf_get s k) = true.
Proof.
  intros Hk Hin. unfold mtf_get. destruct (extract_in k (used s) Hk b Hin) as [rest ->]. auto.
Qed.

Lemma get_hit_inv s k : snd (mtf_get s k) = true -> In (k, snd (fst (mtf_get s k))) (used s).
Proof. destruct (mtf_get_spec s k) as [l1 b l2 -> _ | | |]; [intros _; apply in_elt | discriminate..]. Qed.

Lemma get_miss s k : ~ In k (map fst (used s)) -> snd (mtf_get s k) = false.
Proof.
  intro Hn. destruct (snd (mtf_get s k)) eqn:E; [|reflexivity].
  destruct Hn. exact (in_map fst _ _ (get_hit_inv s k E)).
Qed.

(* the requested key is bound at the front afterwards; nothing is bound only when there is no buffer at all *)
Lemma get_binds s k :
  (exists rest, used (fst (fst (mtf_get s k))) = (k, snd (fst (mtf_get s k))) :: rest) \/ used (fst (fst (mtf_get s k))) = [].
Proof. destruct (mtf_get_spec s k) as [| | | Hu Hf]; cbn; eauto. Qed.

(* a get loses at most the least recently used entry of a full cache: stated as a bound on what is bound afterwards *)
Lemma get_bindings_old s k k' b' :
  In (k', b') (used (fst (fst (mtf_get s k)))) -> (k' = k /\ b' = snd (fst (mtf_get s k))) \/ In (k', b') (used s).
Proof.
  destruct (mtf_get_spec s k) as [l1 b l2 -> _ | b fr _ _ | l k0 b _ _ -> | _ _]; cbn [fst snd used].
  - rewrite <- Permutation_middle. auto.
  - intros [[= <- <-]|H]; auto.
  - rewrite <- Permutation_cons_append. intros [[= <- <-]|H]; cbn; auto.
  - auto.
Qed.

Lemma get_buffer_once n s k : wf n s ->
  forall k', In (k', snd (fst (mtf_get s k))) (used (fst (fst (mtf_get s k)))) -> k' = k.
Proof.
  intros Hnd%(wf_get n s k)%nodup_bufs k'.
  destruct (get_binds s k) as [[rest E]|E]; rewrite E in *; [|intros []].
  (* the buffer stands at the front, so it stands nowhere else *)
  cbn [map snd app] in Hnd. apply NoDup_cons_iff in Hnd as [Hni _]. intros [[= ->]|Hin]; [reflexivity|].
  destruct Hni. apply in_or_app. left. exact (in_map snd _ _ Hin).
Qed.

Section MemoProofs.
Variable V : Type.
Variable f : nat -> nat -> V.
Variable dflt : V.

Definition minv (n : nat) (c : memo V) : Prop :=
  wf n (m_mtf c) /\ forall k b, In (k, b) (used (m_mtf c)) -> m_store c b = f (m_mode c) k.

Lemma minv_init n : minv n (memo_init V dflt n).
Proof. split; [apply wf_init | cbn; tauto]. Qed.

Lemma memo_get_correct n c k : minv n c ->
  snd (memo_get V f c k) = f (m_mode c) k /\ minv n (fst (memo_get V f c k)) /\ m_mode (fst (memo_get V f c k)) = m_mode c.
Proof.
  intros [Hwf Hst]. unfold memo_get.
  pose proof (wf_get n _ k Hwf) as Hwf'. pose proof (get_bindings_old (m_mtf c) k) as Hold.
  pose proof (get_hit_inv (m_mtf c) k) as Hhit. pose proof (get_buffer_once n _ k Hwf) as Honce.
  destruct (mtf_get (m_mtf c) k) as [[s' b] [|]]; cbn in *.
  - split; [apply Hst, Hhit; reflexivity|]. split; [|reflexivity]. split; [exact Hwf'|]. cbn.
    intros k' b' [[-> ->]|Ho]%Hold; auto.
  - split; [reflexivity|]. split; [|reflexivity]. split; [exact Hwf'|]. cbn.
    intros k' b' Hin. unfold upd. destruct (Nat.eqb_spec b' b) as [->|Hb].
    + rewrite (Honce k'); auto.
    + apply Hold in Hin as [[_ ->]|Ho]; [contradiction | auto].
Qed.

Lemma minv_flush n c md : minv n c -> minv n (memo_set_mode_flush V c md).
Proof. intros [Hwf _]. split; [apply wf_erase, Hwf | cbn; tauto]. Qed.

(* every finite sequence of queries and mode changes is answered as by fresh computations *)
Theorem memo_flush_history_independent n ops :
  forall c, minv n c -> memo_run V f true c ops = fresh_run V f (m_mode c) ops.
Proof.
  induction ops as [|o ops IH]; intros c Hc; [reflexivity|].
  destruct o as [k|md]; cbn [memo_run fresh_run].
  - destruct (memo_get_correct n c k Hc) as (Hv & Hc' & Hm).
    destruct (memo_get V f c k) as [c' v]. cbn in *. subst v. rewrite (IH c' Hc'), Hm. reflexivity.
  - exact (IH _ (minv_flush n c md Hc)).
Qed.
End MemoProofs.

(* without the flush the cache serves values computed under the previous mode *)
Theorem memo_noflush_refuted :
  exists ops, memo_run nat (fun md k => md) false (memo_init nat 0 3) ops <> fresh_run nat (fun md k => md) 0 ops.
Proof. exists [Get 1; SetMode 1; Get 1]. discriminate. Qed.
