(* C01 -- every solver returns the weighted least-squares minimiser: property theorems only.
   Stated over an arbitrary real field F (MathComp realFieldType; the rationals used by the exact
   reference model QLsq.v and the reals are instances), for all dimensions m, n. *)
From mathcomp Require Import all_ssreflect ssralg ssrnum matrix.
From Gama Require Import LsqSpec.
Import GRing.Theory.
Local Open Scope ring_scope.

(* v = A x - b with A' P v = 0 makes v' P v minimal, for every symmetric positive semi-definite P *)
Theorem C01_normal_equations_minimise (F : realFieldType) (m n : nat) (A : 'M[F]_(m,n)) (P : 'M[F]_m)
  (b : 'cV[F]_m) (x : 'cV[F]_n) :
  P^T = P -> psd P -> normal_eq A P b x -> forall y, wss A P b x <= wss A P b y.
Proof. exact: normal_eq_minimises. Qed.
Print Assumptions C01_normal_equations_minimise.

(* rank deficient A: a minimiser orthogonal to the null space of A in the inner product of the selected
   unknowns has the smallest sum of squares over the selection among all minimisers *)
Theorem C01_null_orthogonal_is_minimum_norm (F : realFieldType) (m n : nat) (A : 'M[F]_(m,n)) (P : 'M[F]_m)
  (b : 'cV[F]_m) (S : 'M[F]_n) (x y : 'cV[F]_n) :
  P^T = P -> psd P -> pd P -> S^T = S -> (forall g : 'cV[F]_n, 0 <= qf S g) ->
  normal_eq A P b x -> normal_eq A P b y -> null_orthogonal A S x -> qf S x <= qf S y.
Proof. move=> Ps Pp Pd Ss Sp; exact: null_orthogonal_is_minnorm. Qed.
Print Assumptions C01_null_orthogonal_is_minimum_norm.

(* homogenisation: weighting by P = W' W is ordinary least squares on the rows multiplied by W *)
Theorem C01_homogenisation (F : realFieldType) (m n : nat) (A : 'M[F]_(m,n)) (P W : 'M[F]_m)
  (b : 'cV[F]_m) (x : 'cV[F]_n) : P = W^T *m W ->
  (normal_eq (W *m A) 1%:M (W *m b) x <-> normal_eq A P b x) /\
  wss (W *m A) 1%:M (W *m b) x = wss A P b x /\ res (W *m A) (W *m b) x = W *m res A b x.
Proof. exact: whitening_equiv. Qed.
Print Assumptions C01_homogenisation.

(* the exact expansion behind the per-run certificate: for ANY candidate x (e.g. the implementation's
   doubles read as rationals) with gradient g = A' P (A x - b), every y satisfies
   wss y >= wss x + 2 (y - x)' g, so a small exactly-evaluated gradient bounds the loss of optimality *)
Theorem C01_certificate_bound (F : realFieldType) (m n : nat) (A : 'M[F]_(m,n)) (P : 'M[F]_m)
  (b : 'cV[F]_m) (x y : 'cV[F]_n) : P^T = P -> psd P ->
  wss A P b x + 2%:R * sc ((y - x)^T *m (A^T *m P *m res A b x)) <= wss A P b y.
Proof. exact: wss_gradient_bound. Qed.
Print Assumptions C01_certificate_bound.

(* non-vacuity: the hypotheses are satisfiable (unit weights are symmetric positive definite, and the
   identity design has the exact solution x = b) *)
Lemma psd_unit (F : realFieldType) (m : nat) : psd (1%:M : 'M[F]_m).
Proof. by move=> v; rewrite /qf /bil /sc mulmx1 gram_diag_ge0. Qed.

Example C01_example (F : realFieldType) (n : nat) (b : 'cV[F]_n) :
  (1%:M : 'M[F]_n)^T = 1%:M /\ psd (1%:M : 'M[F]_n) /\ normal_eq 1%:M 1%:M b b.
Proof.
split; first exact: trmx1. split; first exact: psd_unit.
by rewrite /normal_eq /res mul1mx subrr mulmx0.
Qed.
