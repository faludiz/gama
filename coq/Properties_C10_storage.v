(* C10 (storage part) -- packed addressing of CovMat / BlockDiagonal: property theorems only. *)
From Coq Require Import ZArith.
From Gama Require Import BandProofs.
Theorem C10_packed_rows_are_consecutive (dim band r : Z) : (0 <= band < dim -> 0 <= r < dim ->
  covmat_offset2 dim band (r + 1) = covmat_offset2 dim band r + 2 * row_len dim band r)%Z.
Proof. exact (fun _ _ => covmat_offset_step dim band r). Qed.
Theorem C10_packed_size (dim band : Z) : (0 <= band < dim ->
  covmat_offset2 dim band dim = 2 * dim * (band + 1) - band * (band + 1))%Z.
Proof. intros [H _]. exact (covmat_size dim band H). Qed.
Print Assumptions C10_packed_size.
