(* C12 (and C09) -- what is reported in a mirrored frame: property theorems only. *)
From mathcomp Require Import all_ssreflect ssralg ssrnum matrix.
From Gama Require Import FrameProofs.
Local Open Scope ring_scope.

(* coordinates reported as S x (S a signature matrix: y mirrored) together with the covariance matrix S C S give the same
   variance for every derived quantity f' x as the internal frame: this is the matrix the adjustment XML must contain *)
Theorem C12_mirrored_frame_keeps_every_derived_variance (F : realFieldType) n (C S : 'M[F]_n) (f : 'cV[F]_n) :
  S *m S = 1%:M -> S^T = S -> (S *m f)^T *m (S *m C *m S) *m (S *m f) = f^T *m C *m f.
Proof. exact: mirrored_covariance_is_congruence. Qed.
Print Assumptions C12_mirrored_frame_keeps_every_derived_variance.

Theorem C12_mirrored_frame_keeps_every_covariance (F : realFieldType) n (C S : 'M[F]_n) (f g : 'cV[F]_n) :
  S *m S = 1%:M -> S^T = S -> (S *m f)^T *m (S *m C *m S) *m (S *m g) = f^T *m C *m g.
Proof. exact: mirrored_covariance_is_congruence. Qed.
Print Assumptions C12_mirrored_frame_keeps_every_covariance.

(* what the writer did before the repair -- mirrored coordinates with the unmirrored matrix -- changes derived variances *)
Theorem C12_unmirrored_matrix_with_mirrored_coordinates_refuted (F : realFieldType) :
  Sw F *m Sw F = 1%:M /\ (Sw F)^T = Sw F /\ (Sw F *m fw F)^T *m Cw F *m (Sw F *m fw F) != (fw F)^T *m Cw F *m fw F.
Proof. exact: unmirrored_matrix_refuted. Qed.
Print Assumptions C12_unmirrored_matrix_with_mirrored_coordinates_refuted.
