(* C11: tag-level model of an expat-driven parser.
   Generic part (no reference to the generated tables):
     - documents as trees, their event streams (open / close / non-blank text),
     - a grammar given by per-element content models (small deterministic automata over child tags),
     - the tree validator of the grammar, the stack machine of the grammar, and the theorem that the stack
       machine accepts the event stream of a tree exactly when the validator accepts the tree;
     - grammar inclusion by a simulation between content-model states.
   GkfDefs.v builds the two grammars, GkfProofs.v ties them to the tables regenerated from gkfparser.cpp (GkfGen.v). *)
From Coq Require Import List Bool Arith.
Import ListNotations.

(* how the finite checks of this file, GkfProofs.v and GkfAttrProofs.v are read *)
Lemma forallb_complete {A} {l : list A} (C : forall x, In x l) {f : A -> bool} :
  forallb f l = true -> forall x, f x = true.
Proof. intros H x. exact (proj1 (forallb_forall f l) H x (C x)). Qed.
Lemma forallb_false {A} (f : A -> bool) l : forallb f l = false <-> exists x, In x l /\ f x = false.
Proof.
  induction l as [|x l IH]; cbn [forallb In].
  - split; [discriminate | intros [_ [[] _]]].
  - rewrite andb_false_iff, IH. split.
    + intros [E | [a [Ha Hb]]]; eauto.
    + intros [a [[<- | Ha] Hb]]; eauto.
Qed.

Section Grammar.
Variable T : Type.

Inductive node := Elt (t : T) (cs : list node) | Txt.
Inductive ev := Open (t : T) | Close | Text.

(* induction on forests: a forest is empty, or a first tree (text, or an element over a forest) before a forest *)
Lemma forest_ind (P : list node -> Prop) :
  P [] -> (forall r, P r -> P (Txt :: r)) -> (forall t cs r, P cs -> P r -> P (Elt t cs :: r)) -> forall l, P l.
Proof.
  intros P0 PT PE.
  assert (F : forall n r, P r -> P (n :: r)).
  { fix F 1. intros [t cs|] r Hr; [|exact (PT r Hr)].
    apply PE; [|exact Hr]. induction cs as [|c cs IH]; [exact P0 | exact (F c cs IH)]. }
  induction l; auto.
Qed.

Fixpoint flat (n : node) : list ev :=
  match n with
  | Txt => [Text]
  | Elt t cs => Open t :: (fix fk (l : list node) : list ev := match l with [] => [Close] | c :: r => flat c ++ fk r end) cs
  end.
Fixpoint fkids (l : list node) : list ev := match l with [] => [Close] | c :: r => flat c ++ fkids r end.
Lemma flat_elt t cs : flat (Elt t cs) = Open t :: fkids cs.
Proof. reflexivity. Qed.

(* context: None = the document itself, Some t = inside element t *)
Definition ctx := option T.
Record grammar := {
  cm : ctx -> nat -> T -> option nat;      (* content model: state -> child tag -> next state *)
  fin : ctx -> nat -> bool;                (* may the element end here *)
  txt : ctx -> bool }.                     (* is non-blank text allowed *)

Variable G : grammar.

Fixpoint vnode (n : node) : bool :=
  match n with
  | Txt => true
  | Elt t cs =>
    (fix vk (q : nat) (l : list node) : bool :=
       match l with
       | [] => fin G (Some t) q
       | Txt :: r => txt G (Some t) && vk q r
       | (Elt t' _ as c) :: r => match cm G (Some t) q t' with Some q' => vnode c && vk q' r | None => false end
       end) 0 cs
  end.
(* the inner `vk` of vnode with any context in place of `Some t`: a forest as the content of context c, read from state q *)
Fixpoint vkids (c : ctx) (q : nat) (l : list node) : bool :=
  match l with
  | [] => fin G c q
  | Txt :: r => txt G c && vkids c q r
  | (Elt t' _ as n) :: r => match cm G c q t' with Some q' => vnode n && vkids c q' r | None => false end
  end.
Lemma vnode_elt t cs : vnode (Elt t cs) = vkids (Some t) 0 cs.
Proof.
  cbn [vnode]. generalize 0. induction cs as [|[t' cs'|] r IH]; intro q; cbn [vkids]; [| destruct (cm G (Some t) q t') |];
    rewrite ?IH; reflexivity.
Qed.

(* a document: one root element, validated in the document context *)
Definition vdoc (d : node) : bool :=
  match d with
  | Elt t _ => match cm G None 0 t with Some q' => vnode d && fin G None q' | None => false end
  | Txt => false
  end.
(* a document is a forest of one root in the document context *)
Lemma vdoc_elt t cs : vdoc (Elt t cs) = vkids None 0 [Elt t cs].
Proof. reflexivity. Qed.

Definition stack := list (ctx * nat).
Definition sstep (k : stack) (e : ev) : option stack :=
  match k with
  | [] => None
  | (c, q) :: rest =>
    match e with
    | Open t => match cm G c q t with Some q' => Some ((Some t, 0) :: (c, q') :: rest) | None => None end
    | Close => match rest with [] => None | _ => if fin G c q then Some rest else None end
    | Text => if txt G c then Some k else None
    end
  end.
Fixpoint smrun (k : option stack) (w : list ev) : option stack :=
  match w with
  | [] => k
  | e :: w' => match k with None => None | Some k' => smrun (sstep k' e) w' end
  end.
Lemma smrun_none w : smrun None w = None.
Proof. destruct w; reflexivity. Qed.
Lemma smrun_app k w1 w2 : smrun k (w1 ++ w2) = smrun (smrun k w1) w2.
Proof. revert k; induction w1 as [|e w IH]; intro k; simpl; [reflexivity|]. destruct k; [apply IH | now rewrite smrun_none]. Qed.

(* the children of an open element, then its end tag; f is the frame below it (at least the document's: on a
   stack of one frame the machine refuses the end tag) *)
Lemma smrun_kids l : forall c q f rest,
  smrun (Some ((c, q) :: f :: rest)) (fkids l) = if vkids c q l then Some (f :: rest) else None.
Proof.
  induction l as [|r IHr|t cs r IHcs IHr] using forest_ind; intros c q f rest; cbn [fkids vkids].
  - reflexivity.
  - cbn. destruct (txt G c); [apply IHr | apply smrun_none].
  - rewrite flat_elt, vnode_elt. cbn [app smrun sstep]. destruct (cm G c q t) as [q'|]; [|apply smrun_none].
    rewrite smrun_app, IHcs. destruct (vkids (Some t) 0 cs); [apply IHr | apply smrun_none].
Qed.

(* on the events of an element the machine takes one step of the content model of the open element, if the element is valid *)
Lemma smrun_node t cs c q rest :
  smrun (Some ((c, q) :: rest)) (flat (Elt t cs)) =
  match cm G c q t with Some q' => if vnode (Elt t cs) then Some ((c, q') :: rest) else None | None => None end.
Proof.
  rewrite flat_elt, vnode_elt. cbn [smrun sstep].
  destruct (cm G c q t) as [q'|]; [rewrite smrun_kids; destruct (vkids (Some t) 0 cs) | rewrite smrun_none]; reflexivity.
Qed.

Definition sm_accepts (w : list ev) : bool :=
  match smrun (Some [(None, 0)]) w with Some [(None, q)] => fin G None q | _ => false end.

(* (a well-formed XML document has exactly one root element) *)
Theorem sm_accepts_flat t cs : sm_accepts (flat (Elt t cs)) = vdoc (Elt t cs).
Proof.
  unfold sm_accepts, vdoc. rewrite smrun_node. destruct (cm G None 0 t); [destruct (vnode (Elt t cs))|]; reflexivity.
Qed.
End Grammar.

Arguments Elt {T}. Arguments Txt {T}. Arguments Open {T}. Arguments Close {T}. Arguments Text {T}.
Arguments flat {T}. Arguments fkids {T}. Arguments vnode {T}. Arguments vkids {T}. Arguments vdoc {T}.
Arguments sstep {T}. Arguments smrun {T}. Arguments sm_accepts {T}. Arguments cm {T}. Arguments fin {T}. Arguments txt {T}.
Arguments Build_grammar {T}.

Section Inclusion.
Variable T : Type.
Variables G1 G2 : grammar T.

Definition simulation (rel : ctx T -> nat -> nat -> Prop) : Prop := forall c,
  rel c 0 0 /\ (txt G1 c = true -> txt G2 c = true) /\
  forall q1 q2, rel c q1 q2 -> (fin G1 c q1 = true -> fin G2 c q2 = true) /\
    forall t q1', cm G1 c q1 t = Some q1' -> exists q2', cm G2 c q2 t = Some q2' /\ rel c q1' q2'.

Variable rel : ctx T -> nat -> nat -> Prop.
Hypothesis sim : simulation rel.

Lemma vkids_incl l : forall c q1 q2, rel c q1 q2 -> vkids G1 c q1 l = true -> vkids G2 c q2 l = true.
Proof.
  induction l as [|r IHr|t cs r IHcs IHr] using forest_ind; intros c q1 q2 R; destruct (sim c) as (_ & X & S); cbn [vkids].
  - apply (S _ _ R).
  - intros [Ht Hr]%andb_prop. rewrite (X Ht). exact (IHr _ _ _ R Hr).
  - destruct (cm G1 c q1 t) as [q1'|] eqn:E; [|discriminate]. destruct (proj2 (S _ _ R) _ _ E) as [q2' [-> R']].
    rewrite !vnode_elt. intros [Hcs Hr]%andb_prop. rewrite (IHcs _ _ _ (proj1 (sim (Some t))) Hcs). exact (IHr _ _ _ R' Hr).
Qed.

Theorem vnode_incl n : vnode G1 n = true -> vnode G2 n = true.
Proof. destruct n as [t cs|]; [rewrite !vnode_elt; apply vkids_incl, sim | reflexivity]. Qed.

Theorem vdoc_incl d : vdoc G1 d = true -> vdoc G2 d = true.
Proof. destruct d as [t cs|]; [rewrite !vdoc_elt; apply vkids_incl, sim | discriminate]. Qed.
End Inclusion.

(* inclusion decided by a finite check: a set of pairs of content-model states (below: those reachable together,
   computed by a fuel-bounded closure; only the CHECK is relied on, not the closure) that forms a simulation *)
Definition pmem (p : nat * nat) (l : list (nat * nat)) : bool :=
  existsb (fun x => Nat.eqb (fst x) (fst p) && Nat.eqb (snd x) (snd p)) l.
Lemma pmem_in p l : pmem p l = true -> In p l.
Proof.
  intro H. apply existsb_exists in H. destruct H as [[a b] [Hx E]]. destruct p as [c d].
  apply andb_prop in E. destruct E as [E1 E2]. apply Nat.eqb_eq in E1, E2. simpl in *. subst. exact Hx.
Qed.

Section CheckedInclusion.
Variable T : Type.
Variable all : list T.
Hypothesis all_complete : forall t, In t all.
Variables G1 G2 : grammar T.
Variable reach : ctx T -> list (nat * nat).

Definition pair_ok (c : ctx T) (p : nat * nat) : bool :=
  forallb (fun t => match cm G1 c (fst p) t with
                    | None => true
                    | Some q1' => match cm G2 c (snd p) t with None => false | Some q2' => pmem (q1', q2') (reach c) end
                    end) all &&
  implb (fin G1 c (fst p)) (fin G2 c (snd p)).
Definition ctx_ok (c : ctx T) : bool :=
  pmem (0, 0) (reach c) && forallb (pair_ok c) (reach c) && implb (txt G1 c) (txt G2 c).
Definition incl_ok : bool := ctx_ok None && forallb (fun t => ctx_ok (Some t)) all.

Hypothesis ok : incl_ok = true.
Lemma reach_simulation : simulation T G1 G2 (fun c q1 q2 => In (q1, q2) (reach c)).
Proof.
  intro c. assert (H : ctx_ok c = true).
  { apply andb_prop in ok. destruct ok as [H0 H1].
    destruct c as [t|]; [exact (forallb_complete all_complete H1 t) | exact H0]. }
  apply andb_prop in H. destruct H as [H X]. apply andb_prop in H. destruct H as [H0 H].
  split; [exact (pmem_in _ _ H0)|]. split; [intro E; rewrite E in X; exact X|]. intros q1 q2 R.
  pose proof (proj1 (forallb_forall _ _) H _ R) as P. apply andb_prop in P. destruct P as [P F]. cbn [fst snd] in P, F. split.
  - intro E. rewrite E in F. exact F.
  - intros t q1' E. pose proof (forallb_complete all_complete P t) as K. cbn beta in K. rewrite E in K.
    destruct (cm G2 c q2 t) as [q2'|]; [|discriminate]. exists q2'. split; [reflexivity | exact (pmem_in _ _ K)].
Qed.
Theorem checked_incl d : vdoc G1 d = true -> vdoc G2 d = true.
Proof. exact (vdoc_incl T G1 G2 _ reach_simulation d). Qed.
End CheckedInclusion.

Section Reach.
Variable T : Type.
Variable all : list T.
Variables G1 G2 : grammar T.
Definition succs (c : ctx T) (p : nat * nat) : list (nat * nat) :=
  flat_map (fun t => match cm G1 c (fst p) t, cm G2 c (snd p) t with Some a, Some b => [(a, b)] | _, _ => [] end) all.
Fixpoint close (fuel : nat) (c : ctx T) (todo seen : list (nat * nat)) : list (nat * nat) :=
  match fuel with
  | 0 => seen
  | S f => match todo with
           | [] => seen
           | p :: r => if pmem p seen then close f c r seen else close f c (succs c p ++ r) (p :: seen)
           end
  end.
(* the fuel bounds the steps of the worklist (pairs visited x tags: about a hundred for the grammars at hand); with too
   little the list is not closed under `succs` and `incl_ok` fails: nothing unsound can come of it *)
Definition reach_together (c : ctx T) : list (nat * nat) := close 400 c [(0, 0)] [].
End Reach.
