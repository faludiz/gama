(* Float helpers of the correspondence checks (fclose, failing).  The scalar interface [Ops T] with its three
   instances was meant to let one definition of a numerical model serve proofs (R), execution (PrimFloat) and exact
   certificates (Q); no model was written against it (DESIGN.md section 0): the float and the real definitions stand
   side by side instead. *)
From Coq Require Import Reals List QArith Floats Lra.
Import ListNotations.

Record Ops (T : Type) := mkOps {
  zero : T; one : T;
  add : T -> T -> T; sub : T -> T -> T; mul : T -> T -> T; div : T -> T -> T;
  opp : T -> T; sqrt_ : T -> T; abs_ : T -> T;
  ltb : T -> T -> bool; leb : T -> T -> bool; eqb : T -> T -> bool;
  ofZ : Z -> T
}.
Arguments zero {T} _. Arguments one {T} _. Arguments add {T} _ _ _. Arguments sub {T} _ _ _.
Arguments mul {T} _ _ _. Arguments div {T} _ _ _. Arguments opp {T} _ _. Arguments sqrt_ {T} _ _.
Arguments abs_ {T} _ _. Arguments ltb {T} _ _ _. Arguments leb {T} _ _ _. Arguments eqb {T} _ _ _.
Arguments ofZ {T} _ _.

(* reals (proofs only) *)
Definition Rltb (x y : R) : bool := if Rlt_dec x y then true else false.
Definition Rleb (x y : R) : bool := if Rle_dec x y then true else false.
Definition Reqb (x y : R) : bool := if Req_EM_T x y then true else false.

Definition OpsR : Ops R :=
  mkOps R 0%R 1%R Rplus Rminus Rmult Rdiv Ropp R_sqrt.sqrt Rabs Rltb Rleb Reqb IZR.

(* a boolean read off a decision procedure reflects the proposition decided *)
Lemma dec_true {P : Prop} (d : {P} + {~ P}) : (if d then true else false) = true <-> P.
Proof. destruct d; intuition discriminate. Qed.
Lemma dec_false {P : Prop} (d : {P} + {~ P}) : (if d then true else false) = false <-> ~ P.
Proof. destruct d; intuition discriminate. Qed.

Lemma Rltb_true x y : Rltb x y = true <-> (x < y)%R.
Proof. apply dec_true. Qed.
Lemma Rltb_false x y : Rltb x y = false <-> (y <= x)%R.
Proof. unfold Rltb. rewrite dec_false. split; lra. Qed.
Lemma Rleb_true x y : Rleb x y = true <-> (x <= y)%R.
Proof. apply dec_true. Qed.
Lemma Rleb_false x y : Rleb x y = false <-> (y < x)%R.
Proof. unfold Rleb. rewrite dec_false. split; lra. Qed.
Lemma Reqb_true x y : Reqb x y = true <-> x = y.
Proof. apply dec_true. Qed.
Lemma Reqb_false x y : Reqb x y = false <-> x <> y.
Proof. apply dec_false. Qed.

(* binary64 (execution only) *)
Definition OpsF : Ops float :=
  mkOps float 0%float 1%float PrimFloat.add PrimFloat.sub PrimFloat.mul PrimFloat.div
        PrimFloat.opp PrimFloat.sqrt PrimFloat.abs PrimFloat.ltb PrimFloat.leb PrimFloat.eqb
        (fun z => match z with
                  | Z0 => 0%float
                  | Zpos p => PrimFloat.of_uint63 (Uint63.of_Z (Zpos p))
                  | Zneg p => PrimFloat.opp (PrimFloat.of_uint63 (Uint63.of_Z (Zpos p)))
                  end).

(* exact rationals (certificates, sqrt-free algorithms) *)
Definition Qltb (x y : Q) : bool := negb (Qle_bool y x).
Definition OpsQ : Ops Q :=
  mkOps Q 0%Q 1%Q (fun x y => Qred (Qplus x y)) (fun x y => Qred (Qminus x y))
        (fun x y => Qred (Qmult x y)) (fun x y => Qred (Qdiv x y)) Qopp
        (fun x => x) (* no sqrt at Q: algorithms using it are never run at this instance *)
        Qabs.Qabs Qltb Qle_bool Qeq_bool inject_Z.

(* exact value of a (finite) binary64 as a rational *)
Definition float_to_Q (f : float) : option Q :=
  match Prim2SF f with
  | S754_zero _ => Some 0%Q
  | S754_finite s m e =>
      let v := match e with
               | Z0 => inject_Z (Zpos m)
               | Zpos p => inject_Z (Zpos m * 2 ^ Zpos p)
               | Zneg p => Qmake (Zpos m) (2 ^ p)%positive
               end in
      Some (Qred (if s then Qopp v else v))
  | _ => None
  end.

(* relative/absolute agreement used by the floating correspondences of LinRun.v and StatRun.v:
   |a-b| <= tol * max(1, scale) *)
Definition fclose (tol scale a b : float) : bool :=
  let s := if PrimFloat.ltb scale 1%float then 1%float else scale in
  PrimFloat.leb (PrimFloat.abs (PrimFloat.sub a b)) (PrimFloat.mul tol s).

Fixpoint fmaxabs (l : list float) : float :=
  match l with
  | [] => 0%float
  | x :: r => let m := fmaxabs r in let a := PrimFloat.abs x in if PrimFloat.ltb m a then a else m
  end.

Fixpoint fclose_list (tol scale : float) (a b : list float) : bool :=
  match a, b with
  | [], [] => true
  | x :: a', y :: b' => fclose tol scale x y && fclose_list tol scale a' b'
  | _, _ => false
  end.

Definition fclose_vec (tol : float) (a b : list float) : bool :=
  fclose_list tol (let m := fmaxabs a in let n := fmaxabs b in if PrimFloat.ltb m n then n else m) a b.

(* indices (from 0, as N) of the cases on which a boolean check fails; at most [cap] are kept
   so that a wholesale disagreement still prints quickly *)
Fixpoint failing_from {A} (cap : nat) (k : N) (f : A -> bool) (l : list A) : list N :=
  match cap with
  | O => []
  | S cap' =>
    match l with
    | [] => []
    | x :: r => if f x then failing_from cap (N.succ k) f r else k :: failing_from cap' (N.succ k) f r
    end
  end.
Definition failing {A} (f : A -> bool) (l : list A) : list N := failing_from 25 0%N f l.
