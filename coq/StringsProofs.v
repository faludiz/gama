(* Proofs about the string models: escaping round trip, literal recognisers. *)
From Coq Require Import List NArith Bool Lia.
From Gama Require Import Strings.
Import ListNotations.
Local Open Scope N_scope.

(* an entity text is recognised by [match_entity entity_table]; any other byte is neither '&' nor '<' *)
Lemma unescape_fuel_esc1 n c r :
  unescape_fuel (S n) (esc1 c ++ r) = option_map (cons c) (unescape_fuel n r).
Proof.
  unfold esc1.
  destruct (N.eqb_spec c lt) as [->|Hlt]; [reflexivity|].
  destruct (N.eqb_spec c gt) as [->|_]; [reflexivity|].
  destruct (N.eqb_spec c amp) as [->|Hamp]; [reflexivity|].
  destruct (N.eqb_spec c apos) as [->|_]; [reflexivity|].
  destruct (N.eqb_spec c quot) as [->|_]; [reflexivity|].
  apply N.eqb_neq in Hlt, Hamp. cbn. rewrite Hamp, Hlt. reflexivity.
Qed.

Lemma esc1_length c : (1 <= length (esc1 c))%nat.
Proof. unfold esc1. repeat destruct (c =? _); cbn; lia. Qed.

Lemma unescape_esc_gen : forall s n, (length (str2xml s) <= n)%nat -> unescape_fuel n (str2xml s) = Some s.
Proof.
  unfold str2xml. induction s as [|c s IH]; intros n Hn; [destruct n; reflexivity|].
  cbn [flat_map] in *.
  rewrite app_length in Hn. pose proof (esc1_length c). destruct n as [|n]; [lia|].
  rewrite unescape_fuel_esc1, IH by lia. reflexivity.
Qed.

(* every string survives escape + standard XML decoding: in particular the output contains no
   raw '<' and every '&' starts one of the five predefined entities (else [unescape] = None) *)
Theorem unescape_str2xml : forall s, unescape (str2xml s) = Some s.
Proof. intro s. apply unescape_esc_gen. lia. Qed.

Theorem str2xml_injective : forall a b, str2xml a = str2xml b -> a = b.
Proof.
  intros a b H. pose proof (unescape_str2xml a) as Ha. rewrite H, unescape_str2xml in Ha. congruence.
Qed.

(* the escaping of the pinned commit is lossy: an apostrophe comes back as a double quote *)
Theorem str2xml_pinned_refuted :
  exists s, unescape (str2xml_pinned s) <> Some s.
Proof. exists [apos]. discriminate. Qed.

Theorem str2xml_pinned_raw_quote : str2xml_pinned [quot] = [quot].
Proof. reflexivity. Qed.

Lemma is_integer_pinned_sign_only : is_integer_pinned [43] = true /\ is_integer_pinned [45] = true.
Proof. split; reflexivity. Qed.

Lemma take_drop p l : l = takew p l ++ dropw p l.
Proof.
  induction l as [|c r IH]; cbn; [reflexivity|].
  destruct (p c); cbn; [f_equal; exact IH | reflexivity].
Qed.
Lemma takew_all p l : all p (takew p l).
Proof.
  unfold all. induction l as [|c r IH]; cbn; [reflexivity|].
  destruct (p c) eqn:E; cbn; [rewrite E; exact IH | reflexivity].
Qed.
Lemma all_rev p l : all p l -> all p (rev l).
Proof. unfold all. rewrite !forallb_forall. intros H x Hx%in_rev. exact (H x Hx). Qed.
Lemma all_app p a b : all p a -> all p b -> all p (a ++ b).
Proof. unfold all. intros Ha Hb. rewrite forallb_app, Ha, Hb. reflexivity. Qed.

Lemma dropw_app p a b : all p a -> dropw p (a ++ b) = dropw p b.
Proof.
  unfold all. induction a as [|c a IH]; cbn; [reflexivity|]. intros [-> Ha]%andb_true_iff. exact (IH Ha).
Qed.
Lemma dropw_solid p t w : t <> [] -> (forall c, In c t -> p c = false) -> dropw p (t ++ w) = t ++ w.
Proof.
  destruct t as [|x m]; [contradiction|]. cbn. intros _ H.
  rewrite (H x); [reflexivity | left; reflexivity].
Qed.

Lemma trim_decomp s : exists w1 w2, s = w1 ++ trim s ++ w2 /\ all isspace w1 /\ all isspace w2.
Proof.
  exists (takew isspace s), (rev (takew isspace (rev (dropw isspace s)))).
  split; [|split; [apply takew_all | apply all_rev, takew_all]].
  unfold trim. rewrite <- rev_app_distr. rewrite <- take_drop. rewrite rev_involutive. apply take_drop.
Qed.

Lemma trim_core w1 t w2 : all isspace w1 -> all isspace w2 -> t <> [] ->
  (forall c, In c t -> isspace c = false) -> trim (w1 ++ t ++ w2) = t.
Proof.
  intros H1 H2 Hne Ht. unfold trim.
  rewrite dropw_app, dropw_solid by assumption.
  rewrite rev_app_distr, dropw_app by (apply all_rev, H2).
  rewrite <- (app_nil_r (rev t)), dropw_solid, app_nil_r.
  - apply rev_involutive.
  - intros E. apply Hne. rewrite <- (rev_involutive t), E. reflexivity.
  - intros c Hc%in_rev. exact (Ht c Hc).
Qed.

Lemma is_sign_iff c : is_sign c = true <-> c = 43 \/ c = 45.
Proof. unfold is_sign. rewrite orb_true_iff, !N.eqb_eq. reflexivity. Qed.

Lemma skip_sign_decomp t : exists sg, t = sg ++ skip_sign t /\ opt_sign sg.
Proof.
  destruct t as [|c r]; [exists []; split; [reflexivity | left; reflexivity]|].
  cbn. destruct (is_sign c) eqn:E.
  - exists [c]. split; [reflexivity|]. right. apply is_sign_iff in E as [-> | ->]; [left | right]; reflexivity.
  - exists []. split; [reflexivity | left; reflexivity].
Qed.

Lemma opt_sign_all sg : opt_sign sg -> all is_sign sg.
Proof. intros [-> | [-> | ->]]; reflexivity. Qed.

Lemma digit_not_space c : isdigit c = true -> isspace c = false.
Proof.
  unfold isdigit, isspace.
  rewrite andb_true_iff, orb_false_iff, andb_false_iff, !N.leb_le, !N.leb_gt, N.eqb_neq. lia.
Qed.
Lemma digit_not_sign c : isdigit c = true -> is_sign c = false.
Proof. unfold isdigit, is_sign. rewrite andb_true_iff, orb_false_iff, !N.leb_le, !N.eqb_neq. lia. Qed.
Lemma sign_not_space c : is_sign c = true -> isspace c = false.
Proof. intros [-> | ->]%is_sign_iff; reflexivity. Qed.

Lemma is_nil_false {A} (l : list A) : negb (is_nil l) = true -> l <> [].
Proof. destruct l; discriminate. Qed.

(* IsInteger's test for an empty trimmed string is subsumed by its demand for a digit *)
Lemma is_integer_eq s :
  is_integer s = negb (is_nil (skip_sign (trim s))) && forallb isdigit (skip_sign (trim s)).
Proof. unfold is_integer. destruct (trim s); reflexivity. Qed.

Theorem is_integer_sound s : is_integer s = true -> integer_literal s.
Proof.
  rewrite is_integer_eq. intros [Hne Hd]%andb_true_iff.
  destruct (trim_decomp s) as (w1 & w2 & E & H1 & H2).
  destruct (skip_sign_decomp (trim s)) as (sg & Es & Hs).
  exists w1, sg, (skip_sign (trim s)), w2. repeat split; try assumption.
  - rewrite (app_assoc sg), <- Es. exact E.
  - apply is_nil_false, Hne.
Qed.

Theorem is_integer_complete s : integer_literal s -> is_integer s = true.
Proof.
  intros (w1 & sg & ds & w2 & -> & H1 & H2 & Hs & Hne & Hd). rewrite is_integer_eq.
  destruct ds as [|d dr]; [contradiction|]. pose proof Hd as [Hd0 _]%andb_true_iff.
  rewrite (app_assoc sg), trim_core; try assumption.
  - replace (skip_sign (sg ++ d :: dr)) with (d :: dr); [exact Hd|].
    destruct Hs as [-> | [-> | ->]]; try reflexivity. cbn. rewrite digit_not_sign by exact Hd0. reflexivity.
  - destruct sg; discriminate.
  - intros c [Hc|Hc]%in_app_or.
    + apply sign_not_space. revert c Hc. apply forallb_forall, opt_sign_all, Hs.
    + apply digit_not_space. revert c Hc. apply forallb_forall, Hd.
Qed.

Theorem is_integer_spec s : is_integer s = true <-> integer_literal s.
Proof. split; [apply is_integer_sound | apply is_integer_complete]. Qed.

Lemma not_integer_literal_sign : ~ integer_literal [43].
Proof. intros H%is_integer_complete. discriminate. Qed.

(* the pinned recogniser accepts a string outside the documented integer grammar *)
Theorem is_integer_pinned_refuted : exists s, is_integer_pinned s = true /\ ~ integer_literal s.
Proof. exists [43]. split; [reflexivity | apply not_integer_literal_sign]. Qed.

(* IsFloat's optional decimal point *)
Definition skip_dot (t : str) : str := match t with 46 :: r => r | _ => t end.

Lemma skip_dot_decomp t : exists dot, t = dot ++ skip_dot t /\ opt_dot dot.
Proof.
  destruct t as [|c r]; [exists []; split; [reflexivity | left; reflexivity]|].
  destruct (N.eq_dec c 46) as [->|N]; [exists [46]; split; [reflexivity | right; reflexivity]|].
  exists []. split; [|left; reflexivity].
  (* the match on the literal 46 is a match on its binary digits *)
  destruct c as [|p]; [reflexivity|]. do 6 (destruct p as [p|p|]; try reflexivity). contradiction.
Qed.

(* IsFloat's test of what follows the mantissa, written out as in Strings.is_float so that it unifies with it;
   [h]: the mantissa had a digit *)
Lemma exponent_sound (h : bool) t :
  match t with
  | [] => h
  | c :: r =>
    if is_e c then
      match r with
      | [] => false
      | _ => let r1 := skip_sign r in match r1 with [] => false | _ => forallb isdigit r1 && h end
      end
    else false
  end = true -> exponent t /\ h = true.
Proof.
  destruct t as [|c r]; [split; [left; reflexivity | assumption]|].
  destruct (is_e c) eqn:Ee; [|discriminate]. destruct r as [|c1 r]; [discriminate|].
  destruct (skip_sign_decomp (c1 :: r)) as (sg & Es & Hs).
  destruct (skip_sign (c1 :: r)) as [|d ds]; [discriminate|]. intros [Hd Hh]%andb_true_iff.
  split; [right | exact Hh]. exists c, sg, (d :: ds). rewrite <- Es. repeat split; try assumption. discriminate.
Qed.

Theorem is_float_sound s : is_float s = true -> float_literal s.
Proof.
  unfold is_float. destruct (trim_decomp s) as (w1 & w2 & E & H1 & H2).
  destruct (trim s) as [|c0 t0]; [discriminate|].
  destruct (skip_sign_decomp (c0 :: t0)) as (sg & Es & Hs).
  set (t1 := skip_sign (c0 :: t0)) in *. fold (skip_dot (dropw isdigit t1)).
  destruct (skip_dot_decomp (dropw isdigit t1)) as (dot & Ed & Hdot).
  set (t3 := skip_dot (dropw isdigit t1)) in *.
  intros [Hex Hh]%exponent_sound.
  exists w1, sg, (takew isdigit t1), dot, (takew isdigit t3), (dropw isdigit t3), w2.
  repeat split; try assumption; try apply takew_all.
  - rewrite (app_assoc (takew _ t3)), <- take_drop, (app_assoc dot), <- Ed.
    rewrite (app_assoc (takew _ t1)), <- take_drop, (app_assoc sg), <- Es. exact E.
  - apply orb_true_iff in Hh as [Hh|Hh]; [left | right]; apply is_nil_false, Hh.
Qed.
