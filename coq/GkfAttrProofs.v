(* C11, attribute layer: what the regenerated tables guarantee (finite check by evaluation, lifted to all states, tags,
   element names and attribute names). *)
From Coq Require Import List Bool.
From Gama Require Import GkfGen GkfModel GkfAttrDefs GkfProofs.

Lemma xsd_attrs_known_true : xsd_attrs_known = true.
Proof. reflexivity. Qed.

Lemma in_xsd_of e al a r : In (e, al) xsd_attrs -> In (a, r) al -> In (a, r) (xsd_of e).
Proof.
  intros H1 H2. unfold xsd_of. apply in_flat_map. exists (e, al). split; [exact H1|].
  rewrite String.eqb_refl. exact H2.
Qed.

(* a document may carry every attribute xml/gama-local.xsd declares for an element: no handler refuses its name *)
Theorem xsd_attribute_names_are_accepted s t s' e al a r :
  start_step s t = SGo s' -> In e (names_of t) -> In (e, al) xsd_attrs -> In (a, r) al -> accepts_attr s t a = true.
Proof.
  intros Hs He Hal Ha.
  pose proof (forallb_complete all_tags_complete (forallb_complete all_states_complete xsd_attrs_known_true s) t) as K.
  (* split the disjunction of xsd_attrs_known_at with a lemma: simplifying it in place (cbn in K) makes Qed and coqchk
     compare the check over the whole tag table with its simplified copy, which takes them most of a minute *)
  apply orb_true_iff in K. destruct K as [K|K]; [unfold opens in K; rewrite Hs in K; discriminate|].
  rewrite forallb_forall in K. specialize (K e He).
  rewrite forallb_forall in K. exact (K (a, r) (in_xsd_of e al a r Hal Ha)).
Qed.

Theorem attr_walk_refuses_iff s t names :
  attr_walk s t names = false <-> exists a, In a names /\ accepts_attr s t a = false.
Proof. apply forallb_false. Qed.
