(* C18 -- geodetic primitives round-trip: property theorems only. *)
From Coq Require Import Reals List.
From Gama Require Import GeoProofs Strings StringsProofs.
Import ListNotations.

Theorem C18_bearing_antisymmetric (s d dx dy : R) :
  (d * cos s = dx -> d * sin s = dy -> d * cos (s + PI) = - dx /\ d * sin (s + PI) = - dy)%R.
Proof. exact (bearing_antisymmetric s d dx dy). Qed.
Print Assumptions C18_bearing_antisymmetric.

Theorem C18_bearing_distance_consistent (s d dx dy : R) :
  (0 <= d -> d * cos s = dx -> d * sin s = dy -> d = sqrt (dx ^ 2 + dy ^ 2))%R.
Proof. exact (bearing_distance_consistent s d dx dy). Qed.

Theorem C18_geodetic_to_cartesian_lies_on_the_ellipsoid (A e2 b l : R) :
  (0 < A -> 0 <= e2 < 1 ->
  let W := sqrt (1 - e2 * (sin b) ^ 2) in let N := A / W in
  let x := N * cos b * cos l in let y := N * cos b * sin l in let z := N * (1 - e2) * sin b in
  (x ^ 2 + y ^ 2) / A ^ 2 + z ^ 2 / (A ^ 2 * (1 - e2)) = 1)%R.
Proof. exact (blh2xyz_on_ellipsoid A e2 b l). Qed.
Print Assumptions C18_geodetic_to_cartesian_lies_on_the_ellipsoid.

Theorem C18_height_recovered_exactly (N h cb p : R) : (cb <> 0 -> p = (N + h) * cb -> p / cb - N = h)%R.
Proof. exact (height_formula_exact N h cb p). Qed.

Theorem C18_sexagesimal_fields_in_range (T u : Z) : (0 <= T -> 0 < u ->
  let d := T / (3600 * u) in let m := (T / (60 * u)) mod 60 in let s := T mod (60 * u) in
  0 <= d /\ 0 <= m < 60 /\ 0 <= s < 60 * u /\ T = (d * 3600 + m * 60) * u + s)%Z.
Proof. exact (dms_fields_in_range T u). Qed.
Print Assumptions C18_sexagesimal_fields_in_range.

(* literal recognisers: the integer recogniser of the pinned commit accepted a string outside the documented
   grammar (a bare sign); fixed in /repo (see KNOWN_FINDINGS.txt), and the fixed model rejects it *)
Theorem C18_pinned_integer_recogniser_refuted : exists s, is_integer_pinned s = true /\ ~ integer_literal s.
Proof. exact is_integer_pinned_refuted. Qed.
Example C18_fixed_integer_recogniser_rejects_bare_sign : is_integer [43%N] = false /\ is_integer [45%N] = false.
Proof. split; reflexivity. Qed.

(* Bowring's closed formula (Ellipsoid::xyz2blh) is exact on the ellipsoid: for the meridian point (a cos u, b sin u) the two
   arguments of its atan2 are in the ratio (a sin u) : (b cos u), the tangent of the geodetic latitude; the parametric latitude
   it starts from is the true one.  (With a height the formula is approximate: the size of that error is sampled, C18 partial.) *)
Theorem C18_bowring_exact_on_the_ellipsoid (a b u : R) : (0 < a -> 0 < b ->
  let e2 := (a * a - b * b) / (a * a) in
  let e22 := (a * a - b * b) / (b * b) in
  let p := a * cos u in let z := b * sin u in
  (z + e22 * b * (sin u * sin u) * sin u) * (b * cos u) = (p - e2 * a * (cos u * cos u) * cos u) * (a * sin u))%R.
Proof. exact (bowring_exact_on_the_ellipsoid a b u). Qed.
Print Assumptions C18_bowring_exact_on_the_ellipsoid.
Theorem C18_bowring_parametric_latitude_exact (a b u : R) : (0 < a -> 0 < b -> cos u <> 0 ->
  a / b * (b * sin u) / (a * cos u) = tan u)%R.
Proof. exact (bowring_parametric_latitude_exact a b u). Qed.
