(* C15 -- dense matrix library obeys the algebra it implements: property theorems only. *)
From mathcomp Require Import all_ssreflect ssralg matrix.
From Gama Require Import LsqSpec.
Local Open Scope ring_scope.

(* the pseudo-inverse assembled from a singular value decomposition A = U W V' (U'U = 1, V'V = 1) and a
   generalised inverse Wp of the diagonal factor satisfies the four Moore-Penrose conditions *)
Theorem C15_pinv_from_svd_is_moore_penrose (F : fieldType) (m n : nat) (U : 'M[F]_(m,n)) (W Wp V : 'M[F]_n) :
  U^T *m U = 1%:M -> V^T *m V = 1%:M ->
  W *m Wp *m W = W -> Wp *m W *m Wp = Wp -> (W *m Wp)^T = W *m Wp -> (Wp *m W)^T = Wp *m W ->
  let A := U *m W *m V^T in let X := V *m Wp *m U^T in
  [/\ A *m X *m A = A, X *m A *m X = X, (A *m X)^T = A *m X & (X *m A)^T = X *m A].
Proof.
move=> UU VV H1 H2 H3 H4 A X.
have AX : A *m X = U *m (W *m Wp) *m U^T by rewrite /A /X -!mulmxA (mulKmx1 VV).
have XA : X *m A = V *m (Wp *m W) *m V^T by rewrite /A /X -!mulmxA (mulKmx1 UU).
split.
- have -> : A *m X *m A = U *m (W *m Wp *m W) *m V^T by rewrite AX /A -!mulmxA (mulKmx1 UU).
  by rewrite H1.
- have -> : X *m A *m X = V *m (Wp *m W *m Wp) *m U^T by rewrite XA /X -!mulmxA (mulKmx1 VV).
  by rewrite H2.
- by rewrite AX tr_conj H3.
- by rewrite XA tr_conj H4.
Qed.
Print Assumptions C15_pinv_from_svd_is_moore_penrose.

Theorem C15_transpose_of_product (F : fieldType) (m n p : nat) (A : 'M[F]_(m,n)) (B : 'M[F]_(n,p)) :
  (A *m B)^T = B^T *m A^T.
Proof. exact: trmx_mul. Qed.

Theorem C15_left_inverse_is_right_inverse (F : fieldType) (n : nat) (A B : 'M[F]_n) : B *m A = 1%:M -> A *m B = 1%:M.
Proof. exact: mulmx1C. Qed.
Print Assumptions C15_left_inverse_is_right_inverse.
