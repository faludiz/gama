(* C05: the closed-form coefficients of LocalLinearization are the partial derivatives of the observation
   functions (Coquelicot), and the angular right-hand sides are reduced to half a circle. *)
From Coq Require Import Reals Lra.
From Coquelicot Require Import Coquelicot.
From Gama Require Import GeoProofs.
Local Open Scope R_scope.

(* with the 2 of the square cancelled in the statement, each distance partial below is convertible to dq / sqrt (q x) *)
Lemma is_derive_sqrt_half (q : R -> R) (x dq : R) :
  is_derive q x (2 * dq) -> 0 < q x -> is_derive (fun t => sqrt (q t)) x (dq / sqrt (q x)).
Proof.
  intros D P. replace (dq / sqrt (q x)) with (2 * dq / (2 * sqrt (q x))).
  - apply is_derive_sqrt; assumption.
  - field. apply Rgt_not_eq, sqrt_lt_R0, P.
Qed.

Lemma is_derive_const_minus (f : R -> R) (c x df : R) : is_derive f x df -> is_derive (fun t => c - f t) x (- df).
Proof. intro D. rewrite <- (Rminus_0_l df). exact (is_derive_minus (fun _ => c) f x 0 df (is_derive_const c x) D). Qed.

Lemma sq_pos_sum (a b : R) : a <> 0 \/ b <> 0 -> 0 < a ^ 2 + b ^ 2.
Proof. intros [H|H]; apply (pow2_gt_0 _) in H; [pose proof (pow2_ge_0 b) | pose proof (pow2_ge_0 a)]; lra. Qed.

(* LocalLinearization::distance *)
Definition hdist (xa ya xb yb : R) : R := sqrt ((xb - xa) ^ 2 + (yb - ya) ^ 2).

Lemma hdist_dxb xa ya xb yb : (xb - xa <> 0 \/ yb - ya <> 0) ->
  is_derive (fun x => hdist xa ya x yb) xb ((xb - xa) / hdist xa ya xb yb).
Proof. intro H. apply is_derive_sqrt_half; [auto_derive; [exact I | ring] | apply sq_pos_sum, H]. Qed.
Lemma hdist_dyb xa ya xb yb : (xb - xa <> 0 \/ yb - ya <> 0) ->
  is_derive (fun y => hdist xa ya xb y) yb ((yb - ya) / hdist xa ya xb yb).
Proof. intro H. apply is_derive_sqrt_half; [auto_derive; [exact I | ring] | apply sq_pos_sum, H]. Qed.
Lemma hdist_dxa xa ya xb yb : (xb - xa <> 0 \/ yb - ya <> 0) ->
  is_derive (fun x => hdist x ya xb yb) xa (- (xb - xa) / hdist xa ya xb yb).
Proof. intro H. apply is_derive_sqrt_half; [auto_derive; [exact I | ring] | apply sq_pos_sum, H]. Qed.
Lemma hdist_dya xa ya xb yb : (xb - xa <> 0 \/ yb - ya <> 0) ->
  is_derive (fun y => hdist xa y xb yb) ya (- (yb - ya) / hdist xa ya xb yb).
Proof. intro H. apply is_derive_sqrt_half; [auto_derive; [exact I | ring] | apply sq_pos_sum, H]. Qed.

(* bearing: two charts of the angle of (dx, dy); on each chart the angle is the chart function plus a locally
   constant offset (a multiple of pi/2), so the partial derivatives are those below *)
Definition brg_x (dx dy : R) : R := atan (dy / dx).          (* chart dx <> 0 *)
Definition brg_y (dx dy : R) : R := - atan (dx / dy).        (* chart dy <> 0 *)

Lemma brg_x_ddy dx dy : dx <> 0 -> is_derive (fun t => brg_x dx t) dy (dx / (dx ^ 2 + dy ^ 2)).
Proof.
  intro H. unfold brg_x. auto_derive; [exact I|]. field. split; [apply Rgt_not_eq, sq_pos_sum|]; auto.
Qed.
Lemma brg_x_ddx dx dy : dx <> 0 -> is_derive (fun t => brg_x t dy) dx (- dy / (dx ^ 2 + dy ^ 2)).
Proof.
  intro H. unfold brg_x. auto_derive; [exact H|]. field. split; [apply Rgt_not_eq, sq_pos_sum|]; auto.
Qed.
Lemma brg_y_ddy dx dy : dy <> 0 -> is_derive (fun t => brg_y dx t) dy (dx / (dx ^ 2 + dy ^ 2)).
Proof.
  intro H. unfold brg_y. auto_derive; [exact H|]. field. split; [apply Rgt_not_eq, sq_pos_sum|]; auto.
Qed.
Lemma brg_y_ddx dx dy : dy <> 0 -> is_derive (fun t => brg_y t dy) dx (- dy / (dx ^ 2 + dy ^ 2)).
Proof.
  intro H. unfold brg_y. auto_derive; [exact I|]. field. split; [apply Rgt_not_eq, sq_pos_sum|]; auto.
Qed.

(* what bearing_distance returns: (s, d) with d > 0, d cos s = dx, d sin s = dy.  The coefficients the code
   stores, K cos s and K sin s with K = c/d, are then c times the partial derivatives above. *)
Lemma code_coefficients_are_partials c s d dx dy :
  0 < d -> d * cos s = dx -> d * sin s = dy ->
  c / d * cos s = c * (dx / (dx ^ 2 + dy ^ 2)) /\ c / d * sin s = c * (dy / (dx ^ 2 + dy ^ 2)).
Proof. intros Hd <- <-. rewrite polar_sq. split; field; lra. Qed.

(* LocalLinearization::s_distance *)
Definition sdist (xa ya za xb yb zb : R) : R := sqrt ((xb - xa) ^ 2 + (yb - ya) ^ 2 + (zb - za) ^ 2).
Lemma sdist_dzb xa ya za xb yb zb : 0 < (xb - xa) ^ 2 + (yb - ya) ^ 2 + (zb - za) ^ 2 ->
  is_derive (fun z => sdist xa ya za xb yb z) zb ((zb - za) / sdist xa ya za xb yb zb).
Proof. intro Hp. apply is_derive_sqrt_half; [auto_derive; [exact I | ring] | exact Hp]. Qed.
Lemma sdist_dxb xa ya za xb yb zb : 0 < (xb - xa) ^ 2 + (yb - ya) ^ 2 + (zb - za) ^ 2 ->
  is_derive (fun x => sdist xa ya za x yb zb) xb ((xb - xa) / sdist xa ya za xb yb zb).
Proof. intro Hp. apply is_derive_sqrt_half; [auto_derive; [exact I | ring] | exact Hp]. Qed.
Lemma sdist_dyb xa ya za xb yb zb : 0 < (xb - xa) ^ 2 + (yb - ya) ^ 2 + (zb - za) ^ 2 ->
  is_derive (fun y => sdist xa ya za xb y zb) yb ((yb - ya) / sdist xa ya za xb yb zb).
Proof. intro Hp. apply is_derive_sqrt_half; [auto_derive; [exact I | ring] | exact Hp]. Qed.
Lemma sdist_dza xa ya za xb yb zb : 0 < (xb - xa) ^ 2 + (yb - ya) ^ 2 + (zb - za) ^ 2 ->
  is_derive (fun z => sdist xa ya z xb yb zb) za (- (zb - za) / sdist xa ya za xb yb zb).
Proof. intro Hp. apply is_derive_sqrt_half; [auto_derive; [exact I | ring] | exact Hp]. Qed.

(* LocalLinearization::z_angle computes acos (dz / sd); for d > 0 that is pi/2 - atan (dz / d), the form
   differentiated here (their identity is not proved) *)
Definition zen (d dz : R) : R := PI / 2 - atan (dz / d).
Lemma zen_ddz d dz : 0 < d -> is_derive (fun t => zen d t) dz (- d / (d ^ 2 + dz ^ 2)).
Proof. intro H. unfold zen. auto_derive; [exact I|]. field. split; nra. Qed.
Lemma zen_dd d dz : 0 < d -> is_derive (fun t => zen t dz) d (dz / (d ^ 2 + dz ^ 2)).
Proof. intro H. unfold zen. auto_derive; [lra|]. field. split; nra. Qed.
(* the code: k = c/(d sd^2), pz = -k d d, and for a target coordinate px = k dz dx = (c dz/sd^2)(dx/d):
   chain rule of zen_dd with hdist_dxb *)
Lemma zen_code_pz c d dz sd : 0 < d -> sd ^ 2 = d ^ 2 + dz ^ 2 ->
  - (c / (d * sd * sd)) * d * d = c * (- d / (d ^ 2 + dz ^ 2)).
Proof. intros Hd Hs. rewrite <- Hs. field. nra. Qed.
Lemma zen_code_px c d dz sd dx : 0 < d -> sd ^ 2 = d ^ 2 + dz ^ 2 ->
  c / (d * sd * sd) * dz * dx = c * (dz / (d ^ 2 + dz ^ 2) * (dx / d)).
Proof. intros Hd Hs. rewrite <- Hs. field. nra. Qed.

(* second face of the instrument: the reading is 2 pi - za; its partials are the negatives (the code mirrored the computed
   value only, before the repair) *)
Definition zen2 (d dz : R) : R := 2 * PI - zen d dz.
Lemma zen2_ddz d dz : 0 < d -> is_derive (fun t => zen2 d t) dz (- (- d / (d ^ 2 + dz ^ 2))).
Proof. intro H. apply is_derive_const_minus, zen_ddz, H. Qed.
Lemma zen2_dd d dz : 0 < d -> is_derive (fun t => zen2 t dz) d (- (dz / (d ^ 2 + dz ^ 2))).
Proof. intro H. apply (is_derive_const_minus (fun t => zen t dz)), zen_dd, H. Qed.

(* reduction of angular right-hand sides: while a > h: a -= 2h; while a < -h: a += 2h *)
Fixpoint down (n : nat) (h a : R) : R :=
  match n with O => a | S k => if Rlt_dec h a then down k h (a - 2 * h) else a end.
Fixpoint up (n : nat) (h a : R) : R :=
  match n with O => a | S k => if Rlt_dec a (- h) then up k h (a + 2 * h) else a end.
Definition reduce (n : nat) (h a : R) : R := up n h (down n h a).

Lemma down_id n h a : a <= h -> down n h a = a.
Proof. intro H. destruct n; [reflexivity|]. cbn. destruct (Rlt_dec h a); [lra | reflexivity]. Qed.
Lemma up_id n h a : - h <= a -> up n h a = a.
Proof. intro H. destruct n; [reflexivity|]. cbn. destruct (Rlt_dec a (- h)); [lra | reflexivity]. Qed.

Lemma down_spec n h a : a <= h + 2 * h * INR n ->
  down n h a <= h /\ (down n h a = a \/ - h < down n h a) /\ exists k : Z, down n h a = a + IZR k * (2 * h).
Proof.
  revert a. induction n as [|n IH]; intros a Ha.
  - cbn in *. split; [lra|]. split; [left; reflexivity|]. exists 0%Z. lra.
  - cbn [down]. rewrite S_INR in Ha. destruct (Rlt_dec h a) as [Hl|Hl].
    + destruct (IH (a - 2 * h)) as (H1 & H2 & [k Hk]); [lra|]. split; [exact H1|]. split; [right; lra|].
      exists (k - 1)%Z. rewrite Hk, minus_IZR. lra.
    + split; [lra|]. split; [left; reflexivity|]. exists 0%Z. lra.
Qed.
Lemma up_spec n h a : - h - 2 * h * INR n <= a -> a <= h ->
  - h <= up n h a <= h /\ exists k : Z, up n h a = a + IZR k * (2 * h).
Proof.
  revert a. induction n as [|n IH]; intros a Ha Hb.
  - cbn in *. split; [lra|]. exists 0%Z. lra.
  - cbn [up]. rewrite S_INR in Ha. destruct (Rlt_dec a (- h)) as [Hl|Hl].
    + destruct (IH (a + 2 * h)) as (H1 & [k Hk]); [lra|lra|]. split; [exact H1|].
      exists (k + 1)%Z. rewrite Hk, plus_IZR. lra.
    + split; [lra|]. exists 0%Z. lra.
Qed.

(* the reduced right-hand side lies in the CLOSED interval [-h, h] and differs from the raw value by a whole
   number of circles; the end point -h is kept (the property text says half-open: see rhs_half_open_refuted) *)
Theorem reduce_spec n h a : Rabs a <= h + 2 * h * INR n ->
  - h <= reduce n h a <= h /\ exists k : Z, reduce n h a = a + IZR k * (2 * h).
Proof.
  intros Ha. unfold reduce. apply Rabs_le_between in Ha. pose proof (pos_INR n).
  destruct (down_spec n h a) as (H1 & H2 & [k1 Hk1]); [lra|].
  (* the lower bound up_spec asks for: down left a alone, or ended above -h (H2) *)
  destruct (up_spec n h (down n h a)) as (H3 & [k2 Hk2]); [nra | exact H1 |].
  split; [exact H3|]. exists (k1 + k2)%Z. rewrite Hk2, Hk1, plus_IZR. lra.
Qed.

Lemma reduce_id n h a : - h <= a <= h -> reduce n h a = a.
Proof. intro H. unfold reduce. rewrite down_id, up_id; lra. Qed.

Theorem rhs_half_open_refuted : exists a, reduce 3 200 a = -200 /\ reduce 3 200 (a + 400) = 200.
Proof. exists (-200). rewrite !reduce_id; lra. Qed.
