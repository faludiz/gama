(* C20 -- ill-posed networks are diagnosed, identically for every algorithm: property theorems only. *)
From mathcomp Require Import all_ssreflect ssralg ssrnum finalg zmodp matrix.
From Gama Require Import LsqSpec SvdIndex.
Import GRing.Theory.
Local Open Scope ring_scope.

(* If the constraints do not resolve the defect (a datum transformation g, A g = 0, that the selection does not see,
   S g = 0), then every minimiser x has a different companion x + g with the same residuals and the same selected norm:
   no algorithm can report "the" adjustment, refusing is the only answer all algorithms can agree on. *)
Theorem C20_unresolved_defect_has_no_unique_solution (F : realFieldType) (m n : nat) (A : 'M[F]_(m,n)) (P : 'M[F]_m)
  (b : 'cV[F]_m) (S : 'M[F]_n) (x g : 'cV[F]_n) :
  S^T = S -> A *m g = 0 -> S *m g = 0 -> normal_eq A P b x ->
  normal_eq A P b (x + g) /\ res A b (x + g) = res A b x /\ qf S (x + g) = qf S x.
Proof.
move=> Ss Ag Sg Hx.
have R : res A b (x + g) = res A b x by rewrite /res mulmxDr Ag addr0.
split; first by rewrite /normal_eq R.
split=> //.
have B w : bil S g w = 0 by rewrite /bil -{1}Ss -trmx_mul Sg trmx0 mul0mx sc0.
by rewrite qfD // /qf !B mulr0 !addr0.
Qed.
Print Assumptions C20_unresolved_defect_has_no_unique_solution.

(* An unknown k with a non-zero entry in a null vector of A is linearly dependent: its column is a combination of
   the other columns (the coefficient vector h has h_k = 0). *)
Theorem C20_null_vector_entry_means_dependent_column (F : realFieldType) (m n : nat) (A : 'M[F]_(m,n))
  (g : 'cV[F]_n) (k : 'I_n) : A *m g = 0 -> g k 0 != 0 ->
  exists h : 'cV[F]_n, h k 0 = 0 /\ col k A = A *m h.
Proof.
(* h = e_k - g / g_k *)
move=> Ag gk; exists (delta_mx k 0 - (g k 0)^-1 *: g); split.
  by rewrite !mxE !eqxx mulVf // subrr.
by rewrite mulmxBr -scalemxAr Ag scaler0 subr0 colE.
Qed.
Print Assumptions C20_null_vector_entry_means_dependent_column.

(* Recorded finding (KNOWN_FINDINGS: C20:svd-lindep-flags-singular-value-index): reading "singular value i vanishes" as
   "unknown i is dependent" is refuted by a 2 x 2 decomposition A = U W V' (V orthogonal): W's second entry vanishes, yet
   the dependent unknown is the first (A e1 = 0) and the second is determined (A e2 <> 0). *)
Theorem C20_vanishing_singular_value_index_is_the_dependent_unknown_refuted (F : realFieldType) :
  [/\ Aex F = 1%:M *m Wex F *m (Vex F)^T, (Vex F)^T *m Vex F = 1%:M, Wex F 1 1 = 0,
      Aex F *m delta_mx 0 0 = (0 : 'cV_2) & Aex F *m delta_mx 1 0 != (0 : 'cV_2)].
Proof. exact: svd_index_is_not_the_unknown. Qed.
Print Assumptions C20_vanishing_singular_value_index_is_the_dependent_unknown_refuted.
