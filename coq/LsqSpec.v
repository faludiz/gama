(* Specification-level least squares theory over an arbitrary real field (MathComp matrices).
   Used by C01, C02, C03, C06, C07, C08, C09, C10, C13, C14, C20; the matrix facts it opens with also by C12 (frame), C15, C16. *)
From mathcomp Require Import all_ssreflect fingroup perm ssralg ssrnum zmodp matrix.
Set Implicit Arguments.
Unset Strict Implicit.
Import GRing.Theory Num.Theory.
Local Open Scope ring_scope.

Lemma mulKmx1 (R : ringType) n p (B : 'M[R]_(n,p)) (C : 'M_(p,n)) :
  B *m C = 1%:M -> forall q (Y : 'M_(n,q)), B *m (C *m Y) = Y.
Proof. by move=> BC q Y; rewrite mulmxA BC mul1mx. Qed.

Lemma perm_mx_orth (R : ringType) n (s : {perm 'I_n}) : (perm_mx s : 'M[R]_n)^T *m perm_mx s = 1%:M.
Proof. by rewrite tr_perm_mx -perm_mxM mulVg perm_mx1. Qed.

Lemma tr_conj (R : comRingType) m n (X : 'M[R]_(m,n)) (M : 'M_n) : (X *m M *m X^T)^T = X *m M^T *m X^T.
Proof. by rewrite !trmx_mul trmxK mulmxA. Qed.

Lemma gram_diag (R : ringType) m n (A : 'M[R]_(m,n)) k : (A^T *m A) k k = \sum_i A i k ^+ 2.
Proof. by rewrite mxE; apply: eq_bigr => i _; rewrite mxE expr2. Qed.

Lemma gram_diag_ge0 (F : realDomainType) m n (A : 'M[F]_(m,n)) k : 0 <= (A^T *m A) k k.
Proof. by rewrite gram_diag sumr_ge0 // => i _; apply: sqr_ge0. Qed.

Section QuadForm.
Variable F : realFieldType.
Variable m : nat.
Implicit Types (P : 'M[F]_m) (u w : 'cV[F]_m).

Definition sc (M : 'M[F]_1) : F := M 0 0.
Lemma scD (M N : 'M[F]_1) : sc (M + N) = sc M + sc N. Proof. by rewrite /sc mxE. Qed.
Lemma scN (M : 'M[F]_1) : sc (- M) = - sc M. Proof. by rewrite /sc mxE. Qed.
Lemma scT (M : 'M[F]_1) : sc M^T = sc M. Proof. by rewrite /sc mxE. Qed.
Lemma sc0 : sc 0 = 0. Proof. by rewrite /sc mxE. Qed.
Lemma scZ (a : F) (M : 'M[F]_1) : sc (a *: M) = a * sc M. Proof. by rewrite /sc mxE. Qed.

Definition bil P u w : F := sc (u^T *m P *m w).
Definition qf P u : F := bil P u u.

Lemma bil_sym P u w : P^T = P -> bil P u w = bil P w u.
Proof.
move=> Ps; rewrite /bil -scT !trmx_mul trmxK Ps mulmxA //.
Qed.

Lemma bilDl P u1 u2 w : bil P (u1 + u2) w = bil P u1 w + bil P u2 w.
Proof. by rewrite /bil linearD /= !mulmxDl scD. Qed.
Lemma bilDr P u w1 w2 : bil P u (w1 + w2) = bil P u w1 + bil P u w2.
Proof. by rewrite /bil mulmxDr scD. Qed.
Lemma bilNl P u w : bil P (- u) w = - bil P u w.
Proof. by rewrite /bil linearN /= !mulNmx scN. Qed.
Lemma bilNr P u w : bil P u (- w) = - bil P u w.
Proof. by rewrite /bil mulmxN scN. Qed.
Lemma bil0r P u : bil P u 0 = 0. Proof. by rewrite /bil mulmx0 sc0. Qed.
Lemma bil0l P w : bil P 0 w = 0. Proof. by rewrite /bil trmx0 !mul0mx sc0. Qed.

Lemma qfD P u w : P^T = P -> qf P (u + w) = qf P u + 2%:R * bil P w u + qf P w.
Proof.
move=> Ps; rewrite /qf bilDl !bilDr (bil_sym u w Ps) mulr_natl mulr2n.
by rewrite !addrA.
Qed.
End QuadForm.

Section Lsq.
Variable F : realFieldType.
Variables m n : nat.
Variable A : 'M[F]_(m,n).
Variable P : 'M[F]_m.
Variable b : 'cV[F]_m.
Implicit Types (x y g : 'cV[F]_n).

Definition res x : 'cV[F]_m := A *m x - b.
Definition wss x : F := qf P (res x).
Definition normal_eq x : Prop := A^T *m P *m res x = 0.
Definition psd : Prop := forall v : 'cV[F]_m, 0 <= qf P v.
(* definiteness only; positive definite together with psd *)
Definition pd : Prop := forall v : 'cV[F]_m, qf P v = 0 -> v = 0.

Lemma res_diff x y : res y = res x + A *m (y - x).
Proof. by rewrite /res mulmxBr [RHS]addrC addrA subrK. Qed.

Lemma bil_grad d w : bil P (A *m d) w = sc (d^T *m (A^T *m P *m w)).
Proof. by rewrite /bil trmx_mul !mulmxA. Qed.

Lemma wss_expand x y : P^T = P ->
  wss y = wss x + 2%:R * sc ((y - x)^T *m (A^T *m P *m res x)) + qf P (A *m (y - x)).
Proof. by move=> Ps; rewrite /wss (res_diff x y) qfD // bil_grad. Qed.

Lemma wss_gradient_bound x y : P^T = P -> psd ->
  wss x + 2%:R * sc ((y - x)^T *m (A^T *m P *m res x)) <= wss y.
Proof. by move=> Ps Pp; rewrite (wss_expand x y Ps) ler_addl; apply: Pp. Qed.

(* C01: the normal equations characterise the minimum *)
Theorem normal_eq_minimises x : P^T = P -> psd -> normal_eq x -> forall y, wss x <= wss y.
Proof.
move=> Ps Pp Hn y; have := wss_gradient_bound x y Ps Pp.
by rewrite Hn mulmx0 sc0 mulr0 addr0.
Qed.

(* A'P(A d) = 0 for d = y - x, so (A d)'P(A d) = 0 *)
Lemma minimisers_differ_in_null x y : pd -> normal_eq x -> normal_eq y -> A *m (y - x) = 0.
Proof.
move=> Pd Hx; rewrite /normal_eq (res_diff x y) mulmxDr Hx add0r => Hd.
by apply: Pd; rewrite /qf bil_grad Hd mulmx0 sc0.
Qed.

(* so the adjusted observations are unique, and with them everything computed from A x *)
Lemma minimisers_same_adjusted x y : pd -> normal_eq x -> normal_eq y -> A *m x = A *m y.
Proof. by move=> Pd Hx Hy; apply/esym/subr0_eq; rewrite -mulmxBr (minimisers_differ_in_null Pd Hx Hy). Qed.

(* C02/C08: all solutions of the normal equations have the same residuals (weights positive definite) *)
Theorem minimisers_same_residuals x y : P^T = P -> psd -> pd ->
  normal_eq x -> normal_eq y -> res x = res y.
Proof. by move=> _ _ Pd Hx Hy; rewrite /res (minimisers_same_adjusted Pd Hx Hy). Qed.
End Lsq.

Section MinNorm.
Variable F : realFieldType.
Variables m n : nat.
Variable A : 'M[F]_(m,n).
Variable P : 'M[F]_m.
Variable b : 'cV[F]_m.
Variable S : 'M[F]_n.     (* selects the coordinates whose corrections are to be minimal *)
(* of the hypotheses on P the proofs below need Pd alone (through minimisers_differ_in_null); `Proof using` keeps Ps and Pp among the
   hypotheses of the theorems, which are stated for symmetric positive definite weights *)
Hypothesis Ps : P^T = P.
Hypothesis Pp : psd P.
Hypothesis Pd : pd P.
Hypothesis Ss : S^T = S.
Hypothesis Sp : forall g : 'cV[F]_n, 0 <= qf S g.

Definition null_orthogonal (x : 'cV[F]_n) : Prop := forall g : 'cV[F]_n, A *m g = 0 -> bil S g x = 0.
Definition resolves_defect : Prop := forall g : 'cV[F]_n, A *m g = 0 -> qf S g = 0 -> g = 0.

(* C01/C08: a minimiser orthogonal (in the S inner product) to the null space of A has the smallest
   S-norm among all minimisers *)
Theorem null_orthogonal_is_minnorm x y :
  normal_eq A P b x -> normal_eq A P b y -> null_orthogonal x -> qf S x <= qf S y.
Proof using Ps Pp Pd Ss Sp.
move=> Hx Hy Ho; have Hg := minimisers_differ_in_null Pd Hx Hy.
have -> : y = x + (y - x) by rewrite addrC subrK.
by rewrite qfD // (Ho _ Hg) mulr0 addr0 ler_addl; apply: Sp.
Qed.

(* C02: if the selection resolves the defect, the minimum-norm minimiser is unique *)
Theorem minnorm_unique x y : resolves_defect ->
  normal_eq A P b x -> normal_eq A P b y -> null_orthogonal x -> null_orthogonal y -> x = y.
Proof using Ps Pp Pd.
move=> Hr Hx Hy Hox Hoy; have Hg := minimisers_differ_in_null Pd Hx Hy.
have Q0 : qf S (y - x) = 0.
  by rewrite /qf bilDr bilNr (Hox _ Hg) (Hoy _ Hg) subrr.
exact/esym/subr0_eq/(Hr _ Hg Q0).
Qed.

(* C08: the adjusted observations A x (hence residuals and the sum of squares) do not depend on the
   regularisation at all *)
Theorem datum_invariance x y :
  normal_eq A P b x -> normal_eq A P b y -> A *m x = A *m y /\ wss A P b x = wss A P b y.
Proof using Ps Pp Pd.
by move=> Hx Hy; rewrite /wss /res (minimisers_same_adjusted Pd Hx Hy).
Qed.
End MinNorm.

(* R is arbitrary: whitening, reordering, rescaling and leaving out observations each add one simplification of R' P' R;
   normal_eq_row is an equality of propositions, so that it rewrites *)
Section RowCongruence.
Variable F : realFieldType.
Variables m' m n : nat.
Variables (R : 'M[F]_(m',m)) (A : 'M[F]_(m,n)) (P' : 'M[F]_m') (b : 'cV[F]_m).
Implicit Type x : 'cV[F]_n.

Lemma res_row x : res (R *m A) (R *m b) x = R *m res A b x.
Proof. by rewrite /res mulmxBr mulmxA. Qed.

Lemma normal_eq_row x : normal_eq (R *m A) P' (R *m b) x = normal_eq A (R^T *m P' *m R) b x.
Proof. by rewrite /normal_eq res_row trmx_mul !mulmxA. Qed.

Lemma wss_row x : wss (R *m A) P' (R *m b) x = wss A (R^T *m P' *m R) b x.
Proof. by rewrite /wss /qf /bil res_row trmx_mul !mulmxA. Qed.
End RowCongruence.

Section Transformations.
Variable F : realFieldType.
Variables m n : nat.
Variable A : 'M[F]_(m,n).
Variable P : 'M[F]_m.
Variable b : 'cV[F]_m.

(* C06: consistent observations (zero right-hand side) are solved by the zero correction, with zero residuals *)
Theorem zero_rhs_zero_solution : b = 0 -> normal_eq A P b 0 /\ res A b 0 = 0 /\ wss A P b 0 = 0.
Proof.
by move=> ->; rewrite /normal_eq /wss /res mulmx0 subr0 mulmx0 /qf bil0r.
Qed.

(* C13: a stationary point (A' P b = 0) needs no correction *)
Theorem stationary_point_zero_correction : A^T *m P *m b = 0 -> normal_eq A P b 0.
Proof. by move=> H; rewrite /normal_eq /res mulmx0 sub0r mulmxN H oppr0. Qed.

(* ... and every other minimiser differs from that zero correction by a datum transformation only (C13; C06 is b = 0) *)
Lemma zero_minimiser x : pd P -> A^T *m P *m b = 0 -> normal_eq A P b x -> res A b x = - b /\ A *m x = 0.
Proof.
move=> Pd /stationary_point_zero_correction H0 Hx.
have := minimisers_differ_in_null Pd H0 Hx; rewrite subr0 => Ax.
by rewrite /res Ax sub0r.
Qed.

(* C09: changing the a priori reference deviation multiplies all weights by a common factor: same minimisers,
   sum of squares scaled *)
Theorem weight_scaling (k : F) x : k != 0 ->
  (normal_eq A (k *: P) b x <-> normal_eq A P b x) /\ wss A (k *: P) b x = k * wss A P b x.
Proof.
move=> k0; split; last by rewrite /wss /qf /bil -scalemxAr -scalemxAl scZ.
rewrite /normal_eq -scalemxAr -scalemxAl; split=> [/eqP|->]; last by rewrite scaler0.
by rewrite scaler_eq0 (negbTE k0) /= => /eqP.
Qed.

(* C01/C10: weighting by a full covariance matrix = ordinary least squares on the whitened system *)
Theorem whitening_equiv (W : 'M[F]_m) x : P = W^T *m W ->
  (normal_eq (W *m A) 1%:M (W *m b) x <-> normal_eq A P b x) /\
  wss (W *m A) 1%:M (W *m b) x = wss A P b x /\
  res (W *m A) (W *m b) x = W *m res A b x.
Proof. by move=> ->; rewrite normal_eq_row wss_row res_row mulmx1. Qed.

(* C07: reordering observations (any orthogonal row transformation R, in particular a permutation,
   applied consistently to A, b and the weight matrix) does not change the normal equations *)
Theorem row_transformation_equivariant (R : 'M[F]_m) x : R^T *m R = 1%:M ->
  (normal_eq (R *m A) (R *m P *m R^T) (R *m b) x <-> normal_eq A P b x) /\
  wss (R *m A) (R *m P *m R^T) (R *m b) x = wss A P b x.
Proof.
move=> RR; rewrite normal_eq_row wss_row.
have -> // : R^T *m (R *m P *m R^T) *m R = P.
by rewrite -!mulmxA (mulKmx1 RR) RR mulmx1.
Qed.

(* C07: renaming / reordering / mirroring the unknowns (any invertible column transformation T) maps
   minimisers to minimisers with identical residuals *)
Theorem column_transformation_equivariant (T : 'M[F]_n) x : T \in unitmx ->
  (normal_eq A P b x -> normal_eq (A *m T) P b (invmx T *m x)) /\
  res (A *m T) b (invmx T *m x) = res A b x.
Proof.
move=> Tu; have E : res (A *m T) b (invmx T *m x) = res A b x.
  by rewrite /res -mulmxA mulKVmx.
split=> // H.
by rewrite /normal_eq E trmx_mul -!mulmxA [A^T *m _]mulmxA H mulmx0.
Qed.
End Transformations.

Section Projector.
Variables (F : realDomainType) (m : nat).
Implicit Type M : 'M[F]_m.

Lemma proj_diag_ge0 M i : M^T = M -> M *m M = M -> 0 <= M i i.
Proof. by move=> Ms Mi; rewrite -{1}Mi -{1}Ms gram_diag_ge0. Qed.

Lemma proj_compl M : M^T = M -> M *m M = M ->
  (1%:M - M)^T = 1%:M - M /\ (1%:M - M) *m (1%:M - M) = 1%:M - M.
Proof.
move=> Ms Mi; split; first by rewrite linearB /= trmx1 Ms.
by rewrite mulmxBl mul1mx mulmxBr mulmx1 Mi subrr subr0.
Qed.

Lemma proj_diag_range M i : M^T = M -> M *m M = M -> 0 <= M i i <= 1.
Proof.
move=> Ms Mi; have [Cs Ci] := proj_compl Ms Mi.
by rewrite proj_diag_ge0 //= -subr_ge0; have := proj_diag_ge0 i Cs Ci; rewrite !mxE eqxx.
Qed.
End Projector.

Section Cofactors.
Variable F : realFieldType.
Variables m n : nat.
Variable A : 'M[F]_(m,n).       (* homogenised design matrix (unit weights) *)
Let N : 'M[F]_n := A^T *m A.
Variable Q : 'M[F]_n.
Hypothesis Qs : Q^T = Q.
Hypothesis QNQ : Q *m N *m Q = Q.

Definition hat : 'M[F]_m := A *m Q *m A^T.

Lemma hat_sym : hat^T = hat.
Proof. by rewrite /hat tr_conj Qs. Qed.

Lemma hat_idem : hat *m hat = hat.
Proof.
(* with Q N Q for Q on the right both sides are the same product *)
by rewrite /hat -[in RHS]QNQ /N !mulmxA.
Qed.

(* C03: cofactors of adjusted observations form a projector: diagonal in [0,1] *)
Theorem hat_diag_range i : 0 <= hat i i <= 1.
Proof. exact: proj_diag_range hat_sym hat_idem. Qed.

(* C03: by this the redundancy numbers 1 - h_ii sum to m - tr (Q N) *)
Theorem hat_trace : \tr hat = \tr (Q *m N).
Proof. by rewrite /hat -mulmxA mxtrace_mulC mulmxA. Qed.

(* C03: transforming a g-inverse of N by T with N T = N (T = I - G (G'SG)^-1 G'S, A G = 0) gives a reflexive
   g-inverse again: the cofactors of x = T x0 *)
Theorem ginv_transform (Q0 T : 'M[F]_n) : N *m Q0 *m N = N -> Q0 *m N *m Q0 = Q0 -> N *m T = N -> N^T = N ->
  let Q' := T *m Q0 *m T^T in N *m Q' *m N = N /\ Q' *m N *m Q' = Q'.
Proof.
move=> NQN Q0NQ0 NT Ns Q'.
have TN : T^T *m N = N by rewrite -{1}Ns -trmx_mul NT Ns.
split.
  have -> : N *m Q' *m N = (N *m T) *m Q0 *m (T^T *m N) by rewrite /Q' !mulmxA.
  by rewrite NT TN.
have -> : Q' *m N *m Q' = T *m (Q0 *m ((T^T *m N) *m T) *m Q0) *m T^T by rewrite /Q' !mulmxA.
by rewrite TN NT Q0NQ0.
Qed.
End Cofactors.
