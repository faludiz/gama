(* C13 -- exported input reproduces the adjustment and is a fixed point: property theorems only (linear-algebra core). *)
From mathcomp Require Import all_ssreflect ssralg ssrnum matrix.
From Gama Require Import LsqSpec.
Local Open Scope ring_scope.

(* the exported approximate coordinates are the adjusted ones: a stationary point of the problem (A' P b = 0 for the system
   linearised there) needs no correction, whatever algorithm re-adjusts it ... *)
Theorem C13_stationary_point_needs_no_correction (F : realFieldType) (m n : nat) (A : 'M[F]_(m,n)) (P : 'M[F]_m)
  (b : 'cV[F]_m) : A^T *m P *m b = 0 -> normal_eq A P b 0.
Proof. exact: stationary_point_zero_correction. Qed.
Print Assumptions C13_stationary_point_needs_no_correction.

(* ... the residuals are then the right-hand side itself (unchanged observations, unchanged statistics), and every
   other minimiser differs from zero by a datum transformation only *)
Theorem C13_readjustment_changes_nothing (F : realFieldType) (m n : nat) (A : 'M[F]_(m,n)) (P : 'M[F]_m)
  (b : 'cV[F]_m) (x : 'cV[F]_n) : P^T = P -> psd P -> pd P -> A^T *m P *m b = 0 -> normal_eq A P b x ->
  res A b x = - b /\ A *m x = 0.
Proof.
by move=> _ _; exact: zero_minimiser.
Qed.
Print Assumptions C13_readjustment_changes_nothing.
