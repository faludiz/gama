(* C15: the packed position of SymMat (MatRun.symmat_pos). *)
From Coq Require Import Arith Lia.
From Gama Require Import MatRun.

Lemma tri_monotone a b : a <= b -> a * (a - 1) / 2 <= b * (b - 1) / 2.
Proof. intro H. apply Nat.div_le_mono; [lia|]. apply Nat.mul_le_mono; lia. Qed.

Lemma tri_step b : (b + 1) * (b + 1 - 1) / 2 = b * (b - 1) / 2 + b.
Proof.
  replace ((b + 1) * (b + 1 - 1)) with (b * (b - 1) + b * 2) by nia.
  rewrite Nat.div_add by lia. reflexivity.
Qed.

(* column b of the packed triangle ends before column b' starts *)
Lemma tri_gap b b' : b < b' -> b * (b - 1) / 2 + b <= b' * (b' - 1) / 2.
Proof. intro H. rewrite <- tri_step. apply tri_monotone. lia. Qed.

Theorem symmat_pos_bound i j n : 1 <= i -> i <= j -> j <= n -> symmat_pos i j < n * (n + 1) / 2.
Proof.
  intros Hi Hij Hj. unfold symmat_pos. rewrite (proj2 (Nat.leb_le i j) Hij).
  pose proof (tri_gap j (n + 1)). replace ((n + 1) * (n + 1 - 1)) with (n * (n + 1)) in * by nia. lia.
Qed.

Theorem symmat_pos_injective i j i' j' :
  1 <= i -> i <= j -> 1 <= i' -> i' <= j' -> symmat_pos i j = symmat_pos i' j' -> i = i' /\ j = j'.
Proof.
  intros Hi Hij Hi' Hij'. unfold symmat_pos.
  rewrite (proj2 (Nat.leb_le i j) Hij), (proj2 (Nat.leb_le i' j') Hij'). intro E.
  pose proof (tri_gap j j'). pose proof (tri_gap j' j). assert (j = j') by lia. subst j'. lia.
Qed.
