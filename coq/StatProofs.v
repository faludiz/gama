(* C17: closed forms used by Student (N = 1, 2) and Chi_square (n = 2) are the exact quantiles of their
   distributions; Chi_square (n = 1) through the normal quantile; symmetry of Normal / Student in the probability;
   Student (N = 2) decreases.  (Reals) *)
From Coq Require Import Reals Lra.
Local Open Scope R_scope.

(* Student, 1 degree of freedom: the distribution function, taken as known (not derived from the density) *)
Definition F1 (t : R) : R := 1 / 2 + atan t / PI.
(* the code: for an upper tail probability alpha in (0, 1/2]:  a = PI/2 * (2 alpha), t = cos a / sin a *)
Definition student1 (alpha : R) : R := let a := PI / 2 * (2 * alpha) in cos a / sin a.

Lemma atan_cot a : 0 < a < PI -> atan (cos a / sin a) = PI / 2 - a.
Proof.
  (* the quotient is tan (PI / 2 - a) *)
  intros [H0 H1]. rewrite <- (sin_shift a), <- (cos_shift a). apply atan_tan. lra.
Qed.

Theorem student_1_exact alpha : 0 < alpha < 1 -> 1 - F1 (student1 alpha) = alpha.
Proof.
  intros [H0 H1]. unfold F1, student1.
  assert (HP := PI_RGT_0).
  rewrite atan_cot by (split; nra).
  field. lra.
Qed.

(* Student, 2 degrees of freedom: the distribution function, taken as known *)
Definition F2 (t : R) : R := 1 / 2 + t / (2 * sqrt (2 + t ^ 2)).
Definition student2 (alpha : R) : R := let a2 := 2 * alpha in sqrt (2 / (a2 * (2 - a2)) - 2).

Theorem student_2_exact alpha : 0 < alpha <= 1 / 2 -> 1 - F2 (student2 alpha) = alpha.
Proof.
  intros [H0 H1]. unfold F2, student2.
  set (q := 2 / (2 * alpha * (2 - 2 * alpha))).
  assert (Hq : 0 < q) by (apply Rdiv_lt_0_compat; nra).
  (* the quantile is t = (1 - 2 alpha) sqrt q, and 2 + t^2 = q *)
  assert (E : q - 2 = (1 - 2 * alpha) ^ 2 * q) by (unfold q; field; nra).
  assert (Hs : 0 < sqrt q) by apply sqrt_lt_R0, Hq.
  rewrite pow2_sqrt by (rewrite E; apply Rmult_le_pos; [apply pow2_ge_0 | lra]). replace (2 + (q - 2)) with q by ring.
  rewrite E, sqrt_mult, sqrt_pow2 by nra. field. lra.
Qed.

(* chi-square, 2 degrees of freedom: survival function exp (-x/2); the code returns -2 ln p *)
Theorem chi2_2_exact p : 0 < p -> exp (- (-2 * ln p) / 2) = p.
Proof. intro Hp. replace (- (-2 * ln p) / 2) with (ln p) by field. apply exp_ln. exact Hp. Qed.

(* chi-square, 1 degree of freedom is the square of the two-sided normal critical value: with Phi the normal
   distribution function, P(X^2 > c^2) = 2 (1 - Phi c); the code returns Normal(p/2)^2 *)
Theorem chi2_1_via_normal (Phi : R -> R) (Nq : R -> R) p :
  (forall a, 0 < a < 1 -> 1 - Phi (Nq a) = a) -> 0 < p < 1 -> 2 * (1 - Phi (Nq (p / 2))) = p.
Proof. intros H Hp. rewrite H; lra. Qed.

(* symmetry: the code computes the value for min (alpha, 1 - alpha) with one formula and flips the sign *)
Section Symmetry.
Variable core : R -> R.          (* the part of Normal / Student evaluated at a = min (alpha, 1 - alpha) *)
Definition sym_quantile (alpha : R) : R :=
  if Rlt_dec (1 / 2) alpha then - core (1 - alpha) else core alpha.
Theorem quantile_symmetric alpha : alpha <> 1 / 2 -> sym_quantile (1 - alpha) = - sym_quantile alpha.
Proof.
  intro Hne. unfold sym_quantile. replace (1 - (1 - alpha)) with alpha by ring.
  destruct (Rlt_dec (1 / 2) (1 - alpha)) as [H1|H1]; destruct (Rlt_dec (1 / 2) alpha) as [H2|H2]; lra.
Qed.
End Symmetry.

(* monotonicity of the closed forms: Student N = 2 decreases in alpha on (0, 1/2] *)
Lemma radicand_decreasing p q : 0 < p < q -> q <= 1 -> 0 <= 2 / q - 2 < 2 / p - 2.
Proof.
  intros Hp Hq. assert (/ q < / p) by (apply Rinv_lt_contravar; nra).
  assert (/ 1 <= / q) by (apply Rinv_le_contravar; lra). rewrite Rinv_1 in *. lra.
Qed.
(* with q = 2 alpha (2 - 2 alpha), increasing on (0, 1/2] and at most 1 *)
Theorem student_2_decreasing a b : 0 < a -> a < b -> b <= 1 / 2 -> student2 b < student2 a.
Proof. intros. apply sqrt_lt_1_alt, radicand_decreasing; nra. Qed.
