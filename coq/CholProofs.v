(* The L D L' factorisation by successive Schur complements (the outer-product form that CovMat::cholDec and
   Envelope::cholDec run in place on packed storage), over any field and for every dimension:
     - it reconstructs the matrix:  L D L' = A  whenever no pivot vanishes,
     - L is unit lower triangular, D diagonal,
     - no entry appears to the left of the first non-zero of a row (the envelope); a band of half-width w is the
       envelope i - w, so the factor fits the same band: neither packed storage loses anything.
   This supplies the factor whose existence the whitening theorems of LsqSpec.v assume. *)
From mathcomp Require Import all_ssreflect ssralg zmodp matrix.
Import GRing.Theory.
Set Implicit Arguments.
Unset Strict Implicit.
Local Open Scope ring_scope.

Section LDL.
Variable F : fieldType.

Definition schur n (A : 'M[F]_(1 + n)) : 'M[F]_n :=
  drsubmx A - (A 0 0)^-1 *: (dlsubmx A *m ursubmx A).

(* the pair (L, D) *)
Fixpoint ldl {n} : 'M[F]_n.+1 -> 'M[F]_n.+1 * 'M[F]_n.+1 :=
  match n return 'M[F]_n.+1 -> 'M[F]_n.+1 * 'M[F]_n.+1 with
  | 0 => fun A => (1%:M, A)
  | n'.+1 => fun A : 'M[F]_(1 + n'.+1) =>
    let LD := ldl (schur A) in
    ((block_mx (1%:M : 'M_1) 0 ((A 0 0)^-1 *: dlsubmx A) LD.1 : 'M_(1 + n'.+1)),
     (block_mx ((A 0 0)%:M : 'M_1) 0 0 LD.2 : 'M_(1 + n'.+1)))
  end.

Fixpoint regular {n} : 'M[F]_n.+1 -> bool :=
  match n return 'M[F]_n.+1 -> bool with
  | 0 => fun A => A 0 0 != 0
  | n'.+1 => fun A : 'M[F]_(1 + n'.+1) => (A 0 0 != 0) && regular (schur A)
  end.

Lemma schur_entry n (A : 'M[F]_(1 + n)) i j :
  schur A i j = A (rshift 1 i) (rshift 1 j) - (A 0 0)^-1 * A (rshift 1 i) 0 * A 0 (rshift 1 j).
Proof.
by rewrite /schur !mxE big_ord1 !mxE mulrA !lshift0.
Qed.

Lemma schur_trmx n (A : 'M[F]_(1 + n)) : schur A^T = (schur A)^T.
Proof. by rewrite /schur [RHS]linearB [in RHS]linearZ /= trmx_mul trmx_drsub trmx_ursub trmx_dlsub mxE. Qed.

Lemma schur_sym n (A : 'M[F]_(1 + n)) : A^T = A -> (schur A)^T = schur A.
Proof. by move=> As; rewrite -schur_trmx As. Qed.

Lemma ul11 n (A : 'M[F]_(1 + n)) : ulsubmx A = (A 0 0)%:M.
Proof. by rewrite [LHS]mx11_scalar !mxE !lshift0. Qed.

(* one elimination step, for any factors of the Schur complement: no symmetry is needed, it only identifies U with L' *)
Lemma ldl_step n (A : 'M[F]_(1 + n)) (L D U : 'M[F]_n) : A 0 0 != 0 -> L *m D *m U = schur A ->
  block_mx 1%:M 0 ((A 0 0)^-1 *: dlsubmx A) L *m block_mx (A 0 0)%:M 0 0 D *m
  block_mx 1%:M ((A 0 0)^-1 *: ursubmx A) 0 U = A.
Proof.
move=> a0 E; rewrite mulmx_block !mul1mx !mulmx0 !mul0mx !addr0 add0r.
rewrite mulmx_block !mulmx1 !mul0mx !mulmx0 !addr0 E -[RHS]submxK ul11.
by rewrite !mul_mx_scalar mul_scalar_mx !scalerA divff // !scale1r -scalemxAr addrC subrK.
Qed.

(* L D U, where U' is the L of A' *)
Theorem ldl_trmx_correct n (A : 'M[F]_n.+1) : regular A -> (ldl A).1 *m (ldl A).2 *m (ldl A^T).1^T = A.
Proof.
elim: n A => [A|n IH] /=; first by rewrite trmx1 mulmx1 mul1mx.
(* tr_block_mx (below: split_ordP, is_diag_block_mx) wants the size written as a sum *)
rewrite -[n.+2]/(1 + n.+1)%N => A /andP[a0 /IH E].
by rewrite schur_trmx tr_block_mx trmx1 trmx0 linearZ /= trmx_dlsub trmxK mxE; apply: ldl_step.
Qed.

Theorem ldl_correct n (A : 'M[F]_n.+1) :
  A^T = A -> regular A -> let LD := ldl A in LD.1 *m LD.2 *m LD.1^T = A.
Proof. by move=> As /ldl_trmx_correct; rewrite As. Qed.

Lemma ldl_L_unit_lower n (A : 'M[F]_n.+1) (i j : 'I_n.+1) : (i <= j)%N -> (ldl A).1 i j = (i == j)%:R.
Proof.
elim: n A i j => [A i j|n IH] /=; first by rewrite mxE.
rewrite -[n.+2]/(1 + n.+1)%N => A i j.
case: (split_ordP i) => i0 ->; case: (split_ordP j) => j0 -> /=.
- by rewrite block_mxEul mxE eq_lshift.
- by rewrite block_mxEur mxE eq_lrshift.
- by rewrite [j0]ord1.
- by rewrite block_mxEdr eq_rshift leq_add2l; apply: IH.
Qed.

Lemma ldl_D_diagonal n (A : 'M[F]_n.+1) (i j : 'I_n.+1) : i != j -> (ldl A).2 i j = 0.
Proof.
move: i j; apply/is_diag_mxP; elim: n A => [A|n IH] /=; first exact: mx11_is_diag.
by rewrite -[n.+2]/(1 + n.+1)%N => A; rewrite is_diag_block_mx // !eqxx mx11_is_diag IH.
Qed.

Definition banded n (w : nat) (A : 'M[F]_n) := forall i j : 'I_n, (w < i - j)%N || (w < j - i)%N -> A i j = 0.
(* row i (and column i, the matrix being symmetric) starts with at least f i zeros *)
Definition in_profile n (f : nat -> nat) (A : 'M[F]_n) :=
  forall i j : 'I_n, (j < f i)%N -> A i j = 0 /\ A j i = 0.

Lemma schur_profile n f (A : 'M[F]_(1 + n)) :
  in_profile f A -> in_profile (fun i => (f i.+1).-1) (schur A).
Proof.
move=> pA i j lt_j; have lt1 : (1 + j < f (1 + i))%N by rewrite add1n -ltn_predRL.
(* j + 1 < f (i + 1) kills the first term, 0 < f (i + 1) the product *)
have [B1 B2] := pA (rshift 1 i) (rshift 1 j) lt1.
have [V1 V2] := pA (rshift 1 i) 0 (leq_ltn_trans (leq0n _) lt1).
by rewrite !schur_entry B1 B2 V1 V2 !(mul0r, mulr0) subr0.
Qed.

(* j < i: a profile may claim a zero on the diagonal, where L has its 1 *)
Theorem ldl_L_in_envelope n f (A : 'M[F]_n.+1) :
  in_profile f A -> forall i j : 'I_n.+1, (j < f i)%N -> (j < i)%N -> (ldl A).1 i j = 0.
Proof.
elim: n f A => [f A _ i j|n IH f] /=; first by rewrite [i]ord1 [j]ord1.
rewrite -[n.+2]/(1 + n.+1)%N => A pA i j.
case: (split_ordP i) => i0 ->; first by rewrite [i0]ord1 ltn0.
case: (split_ordP j) => j0 -> lt_j.
  by rewrite block_mxEdl !mxE (pA _ _ lt_j).1 mulr0.
by rewrite block_mxEdr ltn_add2l; apply: (IH _ _ (schur_profile pA)); rewrite ltn_predRL.
Qed.

(* a band is the profile f i = i - w *)
Lemma banded_profile n w (A : 'M[F]_n) : banded w A <-> in_profile (fun i => (i - w)%N) A.
Proof.
split=> [bA i j | pA i j]; last by case/orP; rewrite -(ltn_subCr _ w) => /pA[].
by rewrite (ltn_subCr _ w) => lt_j; split; apply: bA; rewrite lt_j ?orbT.
Qed.

Lemma schur_banded n w (A : 'M[F]_(1 + n)) : banded w A -> banded w (schur A).
Proof.
move=> /banded_profile pA; apply/banded_profile => i j lt_j.
by apply: (schur_profile pA); rewrite -subnS subSS.
Qed.

Theorem ldl_L_banded n w (A : 'M[F]_n.+1) : banded w A -> banded w (ldl A).1.
Proof.
move=> /banded_profile pA i j /orP[] far; have := leq_ltn_trans (leq0n w) far; rewrite subn_gt0 => lt_ij.
  by apply: (ldl_L_in_envelope pA); rewrite // ltn_subCr.
by rewrite ldl_L_unit_lower ?(ltnW lt_ij) // -val_eqE (ltn_eqF lt_ij).
Qed.

End LDL.
