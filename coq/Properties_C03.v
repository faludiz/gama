(* C03 -- reported cofactors are the true (generalised) inverse: property theorems only
   (any real field, all dimensions). *)
From mathcomp Require Import all_ssreflect ssralg ssrnum matrix.
From Gama Require Import LsqSpec.
Import GRing.Theory.
Local Open Scope ring_scope.

(* cofactors of adjusted observations of the homogenised system, H = A Q A', form a symmetric
   projector whenever Q is a symmetric reflexive g-inverse of N = A'A: diagonal in [0,1] *)
Theorem C03_adjusted_observation_cofactors_are_a_projector (F : realFieldType) (m n : nat)
  (A : 'M[F]_(m,n)) (Q : 'M[F]_n) : Q^T = Q -> Q *m (A^T *m A) *m Q = Q ->
  (hat A Q)^T = hat A Q /\ hat A Q *m hat A Q = hat A Q /\ forall i, 0 <= hat A Q i i <= 1.
Proof.
move=> Qs QNQ; split; first exact: hat_sym. split; first exact: hat_idem.
by move=> i; apply: hat_diag_range.
Qed.
Print Assumptions C03_adjusted_observation_cofactors_are_a_projector.

Theorem C03_redundancy_sum (F : realFieldType) (m n : nat) (A : 'M[F]_(m,n)) (Q : 'M[F]_n) :
  \tr (1%:M - hat A Q) = m%:R - \tr (Q *m (A^T *m A)).
Proof. by rewrite raddfB /= mxtrace1 hat_trace. Qed.
Print Assumptions C03_redundancy_sum.

(* for a regular system Q = N^-1 and the redundancy numbers sum to m - n *)
Corollary C03_redundancy_sum_regular (F : realFieldType) (m n : nat) (A : 'M[F]_(m,n)) (Q : 'M[F]_n) :
  Q *m (A^T *m A) = 1%:M -> \tr (1%:M - hat A Q) = m%:R - n%:R.
Proof. by move=> QN; rewrite C03_redundancy_sum QN mxtrace1. Qed.
Print Assumptions C03_redundancy_sum_regular.

(* the cofactors of the regularised solution x = T x0 (T = I - G (G'SG)^-1 G'S, so N T = N) are again a
   reflexive generalised inverse of N: N Q N = N and Q N Q = Q *)
Theorem C03_regularised_cofactors_are_reflexive_ginverse (F : realFieldType) (m n : nat)
  (A : 'M[F]_(m,n)) (Q0 T : 'M[F]_n) :
  let N := A^T *m A in
  N *m Q0 *m N = N -> Q0 *m N *m Q0 = Q0 -> N *m T = N ->
  let Q := T *m Q0 *m T^T in N *m Q *m N = N /\ Q *m N *m Q = Q.
Proof.
move=> N H1 H2 H3; apply: (ginv_transform H1 H2 H3).
by rewrite /N trmx_mul trmxK.
Qed.
Print Assumptions C03_regularised_cofactors_are_reflexive_ginverse.

Theorem C03_regularised_cofactors_symmetric (F : realFieldType) (n : nat) (Q0 T : 'M[F]_n) :
  Q0^T = Q0 -> (T *m Q0 *m T^T)^T = T *m Q0 *m T^T.
Proof. by move=> Qs; rewrite tr_conj Qs. Qed.

Theorem C03_regularised_cofactors_psd (F : realFieldType) (n : nat) (Q0 T : 'M[F]_n) :
  psd Q0 -> psd (T *m Q0 *m T^T).
Proof.
move=> Hp v; have := Hp (T^T *m v).
by rewrite /qf /bil trmx_mul trmxK !mulmxA.
Qed.
Print Assumptions C03_regularised_cofactors_psd.
