(* C12 / C09: reporting in a mirrored frame.  For axes declared inconsistent with the orientation of the angles gama-local
   works in a frame with y mirrored.  If x' = S x with a signature matrix S (S S = 1, S' = S), the covariance matrix of the
   reported coordinates is S C S: then every derived variance f' C f (standard deviation of an adjusted distance ...) is the
   same in both frames.  Reporting the mirrored coordinates with the UNMIRRORED matrix (what the adjustment XML did before the
   repair) is not: refuted on a 2 x 2 example. *)
From mathcomp Require Import all_ssreflect ssralg ssrnum zmodp matrix.
From Gama Require Import LsqSpec SvdIndex.
Import GRing.Theory Num.Theory.
Local Open Scope ring_scope.

Section Frame.
Variable F : realFieldType.

(* the matrix to report is determined: S C S is the covariance of S x (bilinearity of the covariance) *)
Lemma mirrored_covariance_is_congruence n (C S : 'M[F]_n) (f g : 'cV[F]_n) :
  S *m S = 1%:M -> S^T = S ->
  (S *m f)^T *m (S *m C *m S) *m (S *m g) = f^T *m C *m g.
Proof.
by move=> SS St; rewrite trmx_mul St -!mulmxA !(mulKmx1 SS).
Qed.

(* 2 x 2 witness: C = [[1, 1], [1, 1]], S = diag (1, -1), f = (1, 1)': f' C f = 4, but (S f)' C (S f) = 0 *)
Definition Cw : 'M[F]_2 := \matrix_(i, j) 1.
Definition Sw : 'M[F]_2 := \matrix_(i, j) (if nat_of_ord i == nat_of_ord j then (if nat_of_ord i == 0%N then 1 else -1) else 0).
Definition fw : 'cV[F]_2 := \col_i 1.

Lemma unmirrored_matrix_refuted :
  Sw *m Sw = 1%:M /\ Sw^T = Sw /\ (Sw *m fw)^T *m Cw *m (Sw *m fw) != fw^T *m Cw *m fw.
Proof.
split; [|split].
- by apply: eq_mx2; rewrite mulmx2 !mxE /= ?simp01 // mulrNN mulr1.
- by apply: eq_mx2; rewrite !mxE.
- have Z : Cw *m (Sw *m fw) = 0.
    by apply/colP=> i; rewrite !mulmx2 !mxE /= !simp01 subrr.
  rewrite -mulmxA Z mulmx0 eq_sym; apply/eqP=> /matrixP /(_ 0 0) /eqP.
  by rewrite !mulmx2 !mxE !simp01 -!mulr2n -mulrnA pnatr_eq0.
Qed.
End Frame.
