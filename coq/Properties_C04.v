(* C04 -- solver answers do not depend on the order or history of queries: property theorems only. *)
From Coq Require Import List.
From Gama Require Import CacheModel CacheProofs.
Import ListNotations.

(* The move-to-front cache never loses or duplicates a buffer and never binds a key twice, whatever the
   sequence of requests (N buffers, any N). *)
Theorem C04_mtf_wellformed_for_every_history (n : nat) (ks : list nat) :
  wf n (fold_left (fun s k => fst (fst (mtf_get s k))) ks (mtf_init n)).
Proof. apply wf_fold, wf_init. Qed.
Print Assumptions C04_mtf_wellformed_for_every_history.

Theorem C04_mtf_hit_returns_bound_buffer (n : nat) (s : mtf) (k b : nat) :
  wf n s -> In (k, b) (used s) -> snd (fst (mtf_get s k)) = b /\ snd (mtf_get s k) = true.
Proof. intros [Hk _]. exact (get_hit s k b Hk). Qed.
Print Assumptions C04_mtf_hit_returns_bound_buffer.

(* A cache of computed vectors on top of it, flushed whenever the quantity that the vectors depend on (the
   regularisation in force) changes, answers every finite history of queries exactly like a fresh
   computation under the mode in force at the time of the query. *)
Theorem C04_cached_answers_are_history_independent (V : Type) (f : nat -> nat -> V) (dflt : V) (n : nat) :
  (n >= 1)%nat -> forall ops : list op, memo_run V f true (memo_init V dflt n) ops = fresh_run V f 0 ops.
Proof. intros _ ops. apply (memo_flush_history_independent V f n ops), minv_init. Qed.
Print Assumptions C04_cached_answers_are_history_independent.

(* Without the flush (AdjEnvelope::min_x at the pinned commit did not erase its cache) the property fails:
   the witness is the history  q(1); change of regularisation; q(1). *)
Theorem C04_unflushed_cache_refuted :
  exists ops, memo_run nat (fun md k => md) false (memo_init nat 0 3) ops <> fresh_run nat (fun md k => md) 0 ops.
Proof. exact memo_noflush_refuted. Qed.
Print Assumptions C04_unflushed_cache_refuted.

(* non-vacuity: a history with hits, misses and an eviction on the 3-slot cache *)
Example C04_example :
  mtf_run (mtf_init 3) [7; 8; 7; 9; 5; 8] =
  [(0, false); (1, false); (0, true); (2, false); (1, false); (0, false)].
Proof. reflexivity. Qed.
