(* C16: SparseMatrix::transpose (CrsModel.transpose) keeps every entry, for every storage (any number of rows and
   columns, empty rows, repeated and unsorted column indices). *)
From Coq Require Import List QArith Lia.
From Gama Require Import CrsModel.
Import ListNotations.
Local Open Scope nat_scope.

Lemma wf_row_cons cols ce row :
  wf_row cols (ce :: row) = true <-> 1 <= fst ce <= cols /\ wf_row cols row = true.
Proof. unfold wf_row. cbn [forallb]. rewrite !andb_true_iff, !Nat.leb_le. tauto. Qed.

Lemma wf_cons cols row A : wf cols (row :: A) = true <-> wf_row cols row = true /\ wf cols A = true.
Proof. apply andb_true_iff. Qed.

Lemma put_length b k e : length (put b k e) = length b.
Proof. revert k; induction b as [|r b IH]; intros [|k]; cbn; auto. Qed.

Lemma put_nth b k e j : k < length b -> nth j (put b k e) [] = nth j b [] ++ (if Nat.eqb j k then [e] else []).
Proof.
  revert k j; induction b as [|r b IH]; intros [|k] [|j] H; cbn in *; rewrite ?app_nil_r; try reflexivity; try lia.
  apply IH; lia.
Qed.

Lemma scatter_row_length r row b : length (scatter_row r row b) = length b.
Proof.
  unfold scatter_row. revert b; induction row as [|ce row IH]; intro b; cbn; auto.
  rewrite IH. apply put_length.
Qed.

Lemma pick_cons c r ce row : pick c r (ce :: row) = (if Nat.eqb (fst ce) c then [(r, snd ce)] else []) ++ pick c r row.
Proof. unfold pick; cbn. destruct (Nat.eqb (fst ce) c); reflexivity. Qed.

Lemma scatter_row_nth r row b j : wf_row (length b) row = true ->
  nth j (scatter_row r row b) [] = nth j b [] ++ pick (S j) r row.
Proof.
  unfold scatter_row. revert b; induction row as [|ce row IH]; intros b Hwf; [symmetry; apply app_nil_r|].
  apply wf_row_cons in Hwf as [Hce Hrow]. cbn [fold_left].
  rewrite IH by (rewrite put_length; assumption).
  rewrite put_nth by lia. rewrite pick_cons, <- app_assoc.
  replace (Nat.eqb j (fst ce - 1)) with (Nat.eqb (fst ce) (S j)); [reflexivity|].
  destruct (Nat.eqb_spec (fst ce) (S j)), (Nat.eqb_spec j (fst ce - 1)); lia.
Qed.

Lemma scatter_length r A b : length (scatter r A b) = length b.
Proof. revert r b; induction A as [|row A IH]; intros r b; cbn; auto. rewrite IH. apply scatter_row_length. Qed.

Lemma scatter_nth r A b j : wf (length b) A = true ->
  nth j (scatter r A b) [] = nth j b [] ++ spec_row (S j) r A.
Proof.
  revert r b; induction A as [|row A IH]; intros r b Hwf; [symmetry; apply app_nil_r|].
  apply wf_cons in Hwf as [Hrow HA]. cbn [scatter spec_row].
  rewrite IH by (rewrite scatter_row_length; assumption).
  rewrite scatter_row_nth by assumption. symmetry. apply app_assoc.
Qed.

(* row c of the transpose = the entries of column c, row by row, in storage order *)
Theorem transpose_rows cols A c : wf cols A = true -> 1 <= c ->
  nth (c - 1) (transpose cols A) [] = spec_row c 1 A.
Proof.
  intros Hwf Hc. unfold transpose. rewrite scatter_nth, nth_repeat by (rewrite repeat_length; assumption).
  replace (S (c - 1)) with c by lia. reflexivity.
Qed.

Theorem transpose_row_count cols A : length (transpose cols A) = cols.
Proof. unfold transpose. rewrite scatter_length. apply repeat_length. Qed.

(* the number of stored elements is preserved (the code keeps ncnt_): nothing is dropped or duplicated globally *)
Lemma put_count b k e : k < length b -> length (concat (put b k e)) = S (length (concat b)).
Proof.
  revert k; induction b as [|r b IH]; intros [|k] H; cbn [put concat length] in *; try lia.
  - rewrite !app_length. cbn. lia.
  - rewrite !app_length. rewrite IH by lia. lia.
Qed.

Lemma scatter_row_count r row b : wf_row (length b) row = true ->
  length (concat (scatter_row r row b)) = length (concat b) + length row.
Proof.
  unfold scatter_row. revert b; induction row as [|ce row IH]; intros b Hwf; [cbn; lia|].
  apply wf_row_cons in Hwf as [Hce Hrow]. cbn [fold_left length].
  rewrite IH by (rewrite put_length; assumption).
  rewrite put_count by lia. lia.
Qed.

Lemma scatter_count r A b : wf (length b) A = true ->
  length (concat (scatter r A b)) = length (concat b) + length (concat A).
Proof.
  revert r b; induction A as [|row A IH]; intros r b Hwf; [cbn; lia|].
  apply wf_cons in Hwf as [Hrow HA]. cbn [scatter concat].
  rewrite IH by (rewrite scatter_row_length; assumption).
  rewrite scatter_row_count, app_length by assumption. lia.
Qed.

Lemma concat_repeat_nil {X} n : concat (repeat ([] : list X) n) = [].
Proof. induction n as [|n IH]; auto. Qed.

Theorem transpose_count cols A : wf cols A = true -> length (concat (transpose cols A)) = length (concat A).
Proof.
  intro Hwf. unfold transpose. rewrite scatter_count by (rewrite repeat_length; assumption).
  rewrite concat_repeat_nil. reflexivity.
Qed.

Lemma vals_at_app k a b : vals_at k (a ++ b) = vals_at k a ++ vals_at k b.
Proof. unfold vals_at. rewrite filter_app, map_app. reflexivity. Qed.

Lemma vals_at_pick k c r row : vals_at k (pick c r row) = if Nat.eqb r k then vals_at c row else [].
Proof.
  unfold vals_at, pick. induction row as [|ce row IH]; cbn.
  - destruct (Nat.eqb r k); reflexivity.
  - destruct (Nat.eqb (fst ce) c); cbn; [| exact IH].
    destruct (Nat.eqb r k); cbn; [f_equal |]; exact IH.
Qed.

Lemma vals_at_spec_row k c r0 A :
  vals_at k (spec_row c r0 A) = if Nat.leb r0 k then vals_at c (nth (k - r0) A []) else [].
Proof.
  revert r0; induction A as [|row A IH]; intro r0; cbn [spec_row].
  - destruct (Nat.leb r0 k), (k - r0); reflexivity.
  - rewrite vals_at_app, vals_at_pick, IH.
    destruct (Nat.leb_spec (S r0) k), (Nat.leb_spec r0 k), (Nat.eqb_spec r0 k) as [->|Hk]; try lia.
    + replace (k - r0) with (S (k - S r0)) by lia. reflexivity.
    + rewrite Nat.sub_diag. apply app_nil_r.
    + reflexivity.
Qed.

(* every entry is preserved: what is stored at (c, r) of the transpose is, value by value and in order, what is stored
   at (r, c) of the matrix; nothing else is stored (row indices outside 1..rows do not occur) *)
Theorem transpose_entries cols A r c : wf cols A = true -> 1 <= c -> 1 <= r ->
  vals_at r (nth (c - 1) (transpose cols A) []) = vals_at c (nth (r - 1) A []).
Proof.
  intros Hwf Hc Hr. rewrite transpose_rows, vals_at_spec_row by assumption.
  apply Nat.leb_le in Hr as ->. reflexivity.
Qed.

Lemma spec_row_indices c r0 A e : In e (spec_row c r0 A) -> r0 <= fst e < r0 + length A.
Proof.
  revert r0; induction A as [|row A IH]; intros r0 H; [contradiction|].
  apply in_app_or in H. destruct H as [H|H].
  - unfold pick in H. apply in_map_iff in H. destruct H as [ce [<- _]]. cbn. lia.
  - apply IH in H. cbn [length]. lia.
Qed.

Theorem transpose_wf cols A : wf cols A = true -> wf (length A) (transpose cols A) = true.
Proof.
  intro Hwf. apply forallb_forall. intros row Hin.
  apply (In_nth _ _ []) in Hin as (j & _ & <-).
  replace j with (S j - 1) by lia. rewrite transpose_rows by (assumption || lia).
  apply forallb_forall. intros e He%spec_row_indices.
  rewrite andb_true_iff, !Nat.leb_le. lia.
Qed.

(* transposing twice gives back every entry (the storage order inside a row becomes the stable order by column) *)
Theorem transpose_twice_entries cols A r c : wf cols A = true -> 1 <= c -> 1 <= r ->
  vals_at c (nth (r - 1) (transpose (length A) (transpose cols A)) []) = vals_at c (nth (r - 1) A []).
Proof.
  intros Hwf Hc Hr. rewrite transpose_entries by (assumption || apply transpose_wf, Hwf).
  apply transpose_entries; assumption.
Qed.

(* the hypotheses are satisfiable: repeated and unsorted indices, an empty row *)
Example transpose_example :
  let A : crs := [[(3, 1#1); (1, 2#1); (3, 5#1)]; []; [(2, 7#1)]] in
  wf 3 A = true /\ transpose 3 A = [[(1, 2#1)]; [(3, 7#1)]; [(1, 1#1); (1, 5#1)]].
Proof. split; reflexivity. Qed.
