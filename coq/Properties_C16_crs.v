(* C16 (storage part): property theorems only.  SparseMatrix::transpose, modelled on the compressed-row storage itself
   (CrsModel.v: rows of (index, value) pairs in storage order, any order, repeated indices allowed), preserves every
   entry; for every number of rows and columns and every storage. *)
From Coq Require Import List.
From Gama Require Import CrsModel CrsProofs.
Import ListNotations.

Theorem C16_crs_transpose_rows cols A c : wf cols A = true -> 1 <= c <= cols ->
  nth (c - 1) (transpose cols A) [] = spec_row c 1 A.
Proof. intros Hwf [Hc _]. exact (transpose_rows cols A c Hwf Hc). Qed.
Print Assumptions C16_crs_transpose_rows.

Theorem C16_crs_transpose_preserves_every_entry cols A r c : wf cols A = true -> 1 <= c <= cols -> 1 <= r ->
  vals_at r (nth (c - 1) (transpose cols A) []) = vals_at c (nth (r - 1) A []).
Proof. intros Hwf [Hc _]. exact (transpose_entries cols A r c Hwf Hc). Qed.
Print Assumptions C16_crs_transpose_preserves_every_entry.

Theorem C16_crs_transpose_shape cols A : length (transpose cols A) = cols /\ (wf cols A = true -> wf (length A) (transpose cols A) = true).
Proof. split; [exact (transpose_row_count cols A) | exact (transpose_wf cols A)]. Qed.
Print Assumptions C16_crs_transpose_shape.

Theorem C16_crs_transpose_twice cols A r c : wf cols A = true -> 1 <= c <= cols -> 1 <= r <= length A ->
  vals_at c (nth (r - 1) (transpose (length A) (transpose cols A)) []) = vals_at c (nth (r - 1) A []).
Proof. intros Hwf [Hc _] [Hr _]. exact (transpose_twice_entries cols A r c Hwf Hc Hr). Qed.
Print Assumptions C16_crs_transpose_twice.

(* globally nothing is dropped or duplicated: the number of stored elements (the code's ncnt_) is preserved *)
Theorem C16_crs_transpose_keeps_the_element_count cols A : wf cols A = true ->
  length (concat (transpose cols A)) = length (concat A).
Proof. exact (transpose_count cols A). Qed.
Print Assumptions C16_crs_transpose_keeps_the_element_count.
