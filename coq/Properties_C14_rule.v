(* C14 -- the rule for gross absolute terms as documented and as LocalNetwork::test_abs_term applies it (recorded finding
   C14:abs-term-weight-scaled), over the integers to keep it free of rounding: misclosure |rhs| * d compared with tol * rho.
   The code evaluates the rule on the right-hand side AFTER the weights have been applied, i.e. on rhs * m0 / sd. *)
From Coq Require Import ZArith Lia.
Local Open Scope Z_scope.

Definition doc_excludes (rhs d tol rho : Z) : Prop := tol * rho < Z.abs rhs * d.
Definition code_excludes (rhs d tol rho sd m0 : Z) : Prop := tol * rho * sd < Z.abs rhs * m0 * d.

(* with the standard deviation equal to sigma-apr the two rules coincide ... *)
Theorem C14_rules_agree_for_unit_weight (rhs d tol rho m0 : Z) : 0 < m0 ->
  (code_excludes rhs d tol rho m0 m0 <-> doc_excludes rhs d tol rho).
Proof. unfold code_excludes, doc_excludes. intro H. nia. Qed.
Print Assumptions C14_rules_agree_for_unit_weight.

(* ... otherwise they do not: a misclosure of twice the tolerance is kept when sd = 25 and sigma-apr = 10, and a misclosure
   of 0.9 x tolerance is excluded when sd = 2 (the two witnesses the end-to-end check replays on gama-local) *)
Theorem C14_weight_scaled_rule_refuted :
  (exists rhs d tol rho sd m0, 0 < sd /\ 0 < m0 /\ doc_excludes rhs d tol rho /\ ~ code_excludes rhs d tol rho sd m0) /\
  (exists rhs d tol rho sd m0, 0 < sd /\ 0 < m0 /\ ~ doc_excludes rhs d tol rho /\ code_excludes rhs d tol rho sd m0).
Proof.
  split.
  - exists 2000, 1, 1000, 1, 25, 10. unfold doc_excludes, code_excludes. lia.
  - exists 900, 1, 1000, 1, 2, 10. unfold doc_excludes, code_excludes. lia.
Qed.
Print Assumptions C14_weight_scaled_rule_refuted.

(* the coded rule is monotone too (the documented one: C14_exclusion_rule_monotone) *)
Theorem C14_code_rule_monotone (r1 r2 d tol rho sd m0 : Z) : 0 <= d -> 0 <= m0 -> Z.abs r1 <= Z.abs r2 ->
  code_excludes r1 d tol rho sd m0 -> code_excludes r2 d tol rho sd m0.
Proof.
  unfold code_excludes. intros Hd Hm H12 H.
  assert (K : Z.abs r1 * m0 * d <= Z.abs r2 * m0 * d).
  { apply Z.mul_le_mono_nonneg_r; [exact Hd|]. apply Z.mul_le_mono_nonneg_r; [exact Hm | exact H12]. }
  lia.
Qed.
