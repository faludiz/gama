(* C10 -- correlated observations are weighted by their full covariance matrix: property theorems only. *)
From mathcomp Require Import all_ssreflect ssralg ssrnum matrix.
From Gama Require Import LsqSpec BandProofs.
Local Open Scope ring_scope.

(* a cluster given with the covariance C = L L' (weights P = W' W, W = L^-1) is adjusted exactly as the decorrelated
   (whitened) problem with unit weights: same normal equations, same v'Pv, residuals related by W *)
Theorem C10_cluster_equals_its_whitened_reformulation (F : realFieldType) (m n : nat) (A : 'M[F]_(m,n)) (P W : 'M[F]_m)
  (b : 'cV[F]_m) (x : 'cV[F]_n) : P = W^T *m W ->
  (normal_eq (W *m A) 1%:M (W *m b) x <-> normal_eq A P b x) /\
  wss (W *m A) 1%:M (W *m b) x = wss A P b x /\ res (W *m A) (W *m b) x = W *m res A b x.
Proof. exact: whitening_equiv. Qed.
Print Assumptions C10_cluster_equals_its_whitened_reformulation.

(* the band copied by Cluster::activeCov (|i - j| <= band in the numbering of the ACTIVE observations) contains every
   non-zero entry of the sub-matrix: positions grow at least as fast as ranks *)
Theorem C10_active_band_suffices (T : Type) (zero : T) (cov : nat -> nat -> T) (band : nat) :
  (forall p q, (band < q - p)%N -> cov p q = zero) ->
  forall idx i j, increasing idx -> (i <= j)%coq_nat -> (j < length idx)%coq_nat -> (band < j - i)%coq_nat ->
  active_cov T cov idx i j = zero.
Proof.
by move=> Hb idx i j; apply: active_band_suffices => p q /ltP; apply: Hb.
Qed.
Print Assumptions C10_active_band_suffices.


(* the factor the whitening uses exists and is what the code computes in place: L D L' by successive Schur complements
   reconstructs every symmetric matrix without a vanishing pivot, L is unit lower triangular, D diagonal, and the band of
   the matrix is the band of its factor (so the packed band of CovMat loses nothing) -- CholProofs.v *)
From Gama Require Import CholProofs.
Theorem C10_ldl_reconstructs (F : fieldType) (n : nat) (A : 'M[F]_n.+1) :
  A^T = A -> regular A -> let LD := ldl A in LD.1 *m LD.2 *m LD.1^T = A.
Proof. exact: ldl_correct. Qed.
Print Assumptions C10_ldl_reconstructs.
Theorem C10_ldl_factor_shape (F : fieldType) (n : nat) (A : 'M[F]_n.+1) (i j : 'I_n.+1) :
  ((i <= j)%N -> (ldl A).1 i j = (i == j)%:R) /\ (i != j -> (ldl A).2 i j = 0).
Proof. by split; [exact: ldl_L_unit_lower | exact: ldl_D_diagonal]. Qed.
Print Assumptions C10_ldl_factor_shape.
Theorem C10_ldl_keeps_the_band (F : fieldType) (n w : nat) (A : 'M[F]_n.+1) : banded w A -> banded w (ldl A).1.
Proof. exact: ldl_L_banded. Qed.
Print Assumptions C10_ldl_keeps_the_band.
