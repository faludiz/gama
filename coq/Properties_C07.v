(* C07 -- equivalent descriptions of the same survey give the same adjustment: property theorems only
   (linear-algebra core: what re-expressions do to the linearised problem). *)
From mathcomp Require Import all_ssreflect all_fingroup ssralg ssrnum matrix.
From Gama Require Import LsqSpec.
Local Open Scope ring_scope.

(* reordering observations / clusters = an orthogonal (permutation) row transformation applied to A, b and P *)
Theorem C07_reordering_observations (F : realFieldType) (m n : nat) (A : 'M[F]_(m,n)) (P : 'M[F]_m)
  (b : 'cV[F]_m) (R : 'M[F]_m) (x : 'cV[F]_n) : R^T *m R = 1%:M ->
  (normal_eq (R *m A) (R *m P *m R^T) (R *m b) x <-> normal_eq A P b x) /\
  wss (R *m A) (R *m P *m R^T) (R *m b) x = wss A P b x.
Proof. exact: row_transformation_equivariant. Qed.
Print Assumptions C07_reordering_observations.

Lemma C07_permutation_is_orthogonal (F : realFieldType) (m : nat) (s : {perm 'I_m}) :
  (perm_mx s : 'M[F]_m)^T *m perm_mx s = 1%:M.
Proof. exact: perm_mx_orth. Qed.

(* renaming / reordering points, mirroring an axis (y -> -y) or any other invertible re-parametrisation T of the
   unknowns: minimisers correspond under T^-1 and the residuals are identical *)
Theorem C07_reparametrising_unknowns (F : realFieldType) (m n : nat) (A : 'M[F]_(m,n)) (P : 'M[F]_m)
  (b : 'cV[F]_m) (T : 'M[F]_n) (x : 'cV[F]_n) : T \in unitmx ->
  (normal_eq A P b x -> normal_eq (A *m T) P b (invmx T *m x)) /\ res (A *m T) b (invmx T *m x) = res A b x.
Proof. exact: column_transformation_equivariant. Qed.
Print Assumptions C07_reparametrising_unknowns.

(* translating all coordinates / turning the zero of a direction set changes neither A nor b of the linearised
   problem (Properties_C05: coefficients depend on coordinate differences only, the orientation unknown absorbs the
   circle zero), so the statement for them is the identity; changing units of a group of observations
   (deg <-> gon: value and standard deviation scaled together) is a diagonal scaling D with P' = D^-1 P D^-1 *)
Theorem C07_rescaling_observation_units (F : realFieldType) (m n : nat) (A : 'M[F]_(m,n)) (P : 'M[F]_m)
  (b : 'cV[F]_m) (D : 'M[F]_m) (x : 'cV[F]_n) : D \in unitmx ->
  normal_eq A P b x -> normal_eq (D *m A) ((invmx D)^T *m P *m invmx D) (D *m b) x.
Proof.
move=> Du; rewrite normal_eq_row.
have -> // : D^T *m ((invmx D)^T *m P *m invmx D) *m D = P.
by rewrite -!mulmxA mulVmx // mulmx1 trmx_inv mulKVmx // unitmx_tr.
Qed.
Print Assumptions C07_rescaling_observation_units.
