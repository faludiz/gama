(* C08 -- choice of datum in a free network changes only the datum: property theorems only. *)
From mathcomp Require Import all_ssreflect ssralg ssrnum matrix.
From Gama Require Import LsqSpec.
Local Open Scope ring_scope.

(* Whatever selections S1, S2 regularise the singular problem, the two solutions have the same adjusted
   observations A x, the same residuals and the same sum of squares (they are both minimisers). *)
Theorem C08_datum_changes_only_the_datum (F : realFieldType) (m n : nat) (A : 'M[F]_(m,n)) (P : 'M[F]_m)
  (b : 'cV[F]_m) (x1 x2 : 'cV[F]_n) : P^T = P -> psd P -> pd P ->
  normal_eq A P b x1 -> normal_eq A P b x2 ->
  A *m x1 = A *m x2 /\ res A b x1 = res A b x2 /\ wss A P b x1 = wss A P b x2.
Proof. by move=> _ _ Pd H1 H2; rewrite /wss /res (minimisers_same_adjusted Pd H1 H2). Qed.
Print Assumptions C08_datum_changes_only_the_datum.

(* the difference of the two solutions is a datum transformation (an element of the null space of A) *)
Theorem C08_solutions_differ_by_a_datum_transformation (F : realFieldType) (m n : nat) (A : 'M[F]_(m,n))
  (P : 'M[F]_m) (b : 'cV[F]_m) (x1 x2 : 'cV[F]_n) : P^T = P -> psd P -> pd P ->
  normal_eq A P b x1 -> normal_eq A P b x2 -> A *m (x2 - x1) = 0.
Proof. move=> _ _ Pd H1 H2; exact: minimisers_differ_in_null H1 H2. Qed.
Print Assumptions C08_solutions_differ_by_a_datum_transformation.

(* corrections of the constrained coordinates: orthogonal to the datum transformations <=> minimal *)
Theorem C08_constrained_corrections_minimal (F : realFieldType) (m n : nat) (A : 'M[F]_(m,n)) (P : 'M[F]_m)
  (b : 'cV[F]_m) (S : 'M[F]_n) (x y : 'cV[F]_n) :
  P^T = P -> psd P -> pd P -> S^T = S -> (forall g : 'cV[F]_n, 0 <= qf S g) ->
  normal_eq A P b x -> normal_eq A P b y -> null_orthogonal A S x -> qf S x <= qf S y.
Proof. move=> Ps Pp Pd Ss Sp; exact: null_orthogonal_is_minnorm. Qed.
Print Assumptions C08_constrained_corrections_minimal.

(* cofactors of adjusted observations do not depend on the datum: A T = A for T = I - G(...)G'S with A G = 0 *)
Theorem C08_adjusted_observation_cofactors_datum_free (F : realFieldType) (m n : nat) (A : 'M[F]_(m,n))
  (Q0 T : 'M[F]_n) : A *m T = A -> A *m (T *m Q0 *m T^T) *m A^T = A *m Q0 *m A^T.
Proof.
(* with A T for A on the right both sides are the same product *)
by move=> AT; rewrite -[in RHS]AT trmx_mul !mulmxA.
Qed.
Print Assumptions C08_adjusted_observation_cofactors_datum_free.
