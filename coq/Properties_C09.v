(* C09 -- reported statistics are consistent with the adjustment they describe: property theorems only. *)
From mathcomp Require Import all_ssreflect ssralg ssrnum matrix.
From mathcomp Require Import ring.
From Gama Require Import LsqSpec.
Import GRing.Theory Num.Theory.
Local Open Scope ring_scope.

(* changing only the a priori reference deviation multiplies every weight by the same k = (m0'/m0)^2:
   the minimisers are the same and v'Pv is multiplied by k *)
Theorem C09_sigma_apr_rescales_only_the_sum_of_squares (F : realFieldType) (m n : nat) (A : 'M[F]_(m,n))
  (P : 'M[F]_m) (b : 'cV[F]_m) (k : F) (x : 'cV[F]_n) : k != 0 ->
  (normal_eq A (k *: P) b x <-> normal_eq A P b x) /\ wss A (k *: P) b x = k * wss A P b x.
Proof. exact: weight_scaling. Qed.
Print Assumptions C09_sigma_apr_rescales_only_the_sum_of_squares.

(* for the homogenised system (unit weights) the cofactors of the residuals are I - H, H = A Q A' the projector:
   for uncorrelated observations this is  q_vv = 1/p - q_L  after de-homogenisation; here: residual cofactors
   are the complementary projector, with diagonal in [0,1] *)
Theorem C09_residual_cofactors_complementary_projector (F : realFieldType) (m n : nat)
  (A : 'M[F]_(m,n)) (Q : 'M[F]_n) : Q^T = Q -> Q *m (A^T *m A) *m Q = Q ->
  (1%:M - hat A Q) *m (1%:M - hat A Q) = 1%:M - hat A Q /\ forall i, 0 <= (1%:M - hat A Q) i i <= 1.
Proof.
move=> Qs QNQ; have [Cs Ci] := proj_compl (hat_sym A Qs) (hat_idem QNQ).
by split=> // i; apply: proj_diag_range.
Qed.
Print Assumptions C09_residual_cofactors_complementary_projector.

(* error ellipse: for a symmetric 2x2 cofactor block [[a, c], [c, b]] the numbers
   l1, l2 = ((a+b) +- s)/2 with s^2 = (a-b)^2 + 4 c^2 are its eigenvalues (sum = trace, product = determinant),
   and for an angle al with s cos 2al = a - b, s sin 2al = 2c (what atan2(2c, a-b)/2 delivers), written with
   u = cos al, w = sin al, the direction (u, w) is an eigenvector of the larger eigenvalue *)
Theorem C09_ellipse_semi_axes_are_eigenvalues (F : realFieldType) (a b c s : F) :
  s ^+ 2 = (a - b) ^+ 2 + 4%:R * c ^+ 2 ->
  let l1 := (a + b + s) / 2%:R in let l2 := (a + b - s) / 2%:R in
  l1 + l2 = a + b /\ l1 * l2 = a * b - c * c.
Proof.
by move=> Hs l1 l2; rewrite /l1 /l2; split; field: Hs.
Qed.
Print Assumptions C09_ellipse_semi_axes_are_eigenvalues.

Theorem C09_ellipse_bearing_is_eigenvector (F : realFieldType) (a b c s u w : F) :
  u ^+ 2 + w ^+ 2 = 1 -> s * (u ^+ 2 - w ^+ 2) = a - b -> s * (2%:R * u * w) = 2%:R * c ->
  let l1 := (a + b + s) / 2%:R in
  a * u + c * w = l1 * u /\ c * u + b * w = l1 * w.
Proof.
move=> H1 H2 H3 l1; rewrite /l1.
have Ha : a = b + s * (u ^+ 2 - w ^+ 2) by rewrite H2; ring.
have Hc : c = s * u * w by apply: (mulfI (x := 2%:R)); rewrite ?pnatr_eq0 // -H3; ring.
have Hw : w ^+ 2 = 1 - u ^+ 2 by rewrite -H1; ring.
by split; field: Ha Hc Hw.
Qed.
Print Assumptions C09_ellipse_bearing_is_eigenvector.
