(* C19: the closed-form coefficients of GNU_gama::g3::Model::linearization are the partial derivatives of the
   observation functions in the local north-east-up components (n, e, u) of the line of sight, the horizontal
   angle is recovered from acos and the sign of a triple product, and approximate coordinates obtained from a
   vector with antenna heights are exact when the two verticals coincide.  (G3Run.v is the binary64
   transliteration the correspondence check runs; the formulas are the same.) *)
From Coq Require Import Reals Lra.
From Coquelicot Require Import Coquelicot.
From Gama Require Import GeoProofs LinProofs.
Local Open Scope R_scope.

(* zenith angle  z = pi/2 - atan (u / r),  r = sqrt (n^2 + e^2)  (= acos (u / |v|) for r > 0) *)
Definition hor (n e : R) : R := sqrt (n ^ 2 + e ^ 2).
Definition g3zen (n e u : R) : R := zen (hor n e) u.

Lemma hor_pos n e : n <> 0 \/ e <> 0 -> 0 < hor n e.
Proof. intro H. unfold hor. apply sqrt_lt_R0. apply sq_pos_sum. exact H. Qed.

Lemma hor_sq n e : hor n e ^ 2 = n ^ 2 + e ^ 2.
Proof. apply pow2_sqrt. nra. Qed.

Lemma hor_3_4 : hor 3 4 = 5.
Proof. unfold hor. apply sqrt_lem_1; lra. Qed.

Lemma hor_dn n e : (n <> 0 \/ e <> 0) -> is_derive (fun t => hor t e) n (n / hor n e).
Proof. intro H. apply is_derive_sqrt_half; [auto_derive; [exact I | ring] | apply sq_pos_sum, H]. Qed.
Lemma hor_de n e : (n <> 0 \/ e <> 0) -> is_derive (fun t => hor n t) e (e / hor n e).
Proof. intro H. apply is_derive_sqrt_half; [auto_derive; [exact I | ring] | apply sq_pos_sum, H]. Qed.

(* a horizontal coordinate k enters through r alone, with dr/dk = k / r: chain rule of zen_dd *)
Lemma g3_zenith_dhor (r : R -> R) x k u : 0 < r x -> is_derive r x (k / r x) ->
  is_derive (fun t => zen (r t) u) x (k * u * (1 / (r x * (r x ^ 2 + u ^ 2)))).
Proof.
  intros Hr D. evar_last.
  - apply (is_derive_comp (fun d => zen d u) r), D. apply zen_dd, Hr.
  - change scal with Rmult. unfold Rdiv. rewrite Rinv_mult. ring.
Qed.

(* the code: r = sqrt(n^2+e^2), s = n^2+e^2+u^2, q = 1/(r s); for the TARGET (n u q, e u q, -r/s), for the
   station the opposite signs *)
Theorem g3_zenith_dn n e u : (n <> 0 \/ e <> 0) ->
  is_derive (fun t => g3zen t e u) n (n * u * (1 / (hor n e * (n ^ 2 + e ^ 2 + u ^ 2)))).
Proof. intro H. rewrite <- hor_sq. apply (g3_zenith_dhor (fun t => hor t e)), hor_dn, H. apply hor_pos, H. Qed.

Theorem g3_zenith_de n e u : (n <> 0 \/ e <> 0) ->
  is_derive (fun t => g3zen n t u) e (e * u * (1 / (hor n e * (n ^ 2 + e ^ 2 + u ^ 2)))).
Proof. intro H. rewrite <- hor_sq. apply (g3_zenith_dhor (fun t => hor n t)), hor_de, H. apply hor_pos, H. Qed.

Theorem g3_zenith_du n e u : (n <> 0 \/ e <> 0) ->
  is_derive (fun t => g3zen n e t) u (- (hor n e / (n ^ 2 + e ^ 2 + u ^ 2))).
Proof.
  intro H. rewrite <- (hor_sq n e), <- Ropp_div. apply zen_ddz, hor_pos, H.
Qed.

(* at (n, e, u) = (3, 4, 12) the derivative with respect to n is 36/845, the old coefficient 3/845 *)
Theorem g3_zenith_old_coefficient_refuted :
  exists n e u, (n <> 0 \/ e <> 0) /\
    ~ is_derive (fun t => g3zen t e u) n (n * (1 / (hor n e * (n ^ 2 + e ^ 2 + u ^ 2)))).
Proof.
  exists 3, 4, 12. assert (H : 3 <> 0 \/ 4 <> 0) by (left; lra). split; [exact H|]. intro D.
  apply is_derive_unique in D. rewrite (is_derive_unique _ _ _ (g3_zenith_dn 3 4 12 H)), hor_3_4 in D. lra.
Qed.

(* horizontal direction s = atan2 (e, n) and horizontal angle = s_right - s_left.
   The code: ps = sin s / d, pc = cos s / d, coefficient of the target (-ps, pc): the partials of brg in either chart *)
Theorem g3_direction_coefficients s d n e : 0 < d -> n = d * cos s -> e = d * sin s ->
  - (sin s / d) = - e / (n ^ 2 + e ^ 2) /\ cos s / d = n / (n ^ 2 + e ^ 2).
Proof. intros Hd -> ->. rewrite polar_sq. split; field; lra. Qed.

(* the angle is right direction minus left direction: whatever the directions' partials are, the left target enters
   with the opposite sign (the repaired sign), the station with minus the sum *)
Theorem g3_angle_left_target_sign (fl : R -> R) (sr x dfl : R) :
  is_derive fl x dfl -> is_derive (fun t => sr - fl t) x (- dfl).
Proof. exact (is_derive_const_minus fl sr x dfl). Qed.

Theorem g3_angle_right_target_sign (fr : R -> R) (sl x dfr : R) :
  is_derive fr x dfr -> is_derive (fun t => fr t - sl) x dfr.
Proof.
  intro D. rewrite <- (Rminus_0_r dfr). exact (is_derive_minus fr (fun _ => sl) x dfr 0 D (is_derive_const sl x)).
Qed.

(* acos gives the angle or its complement to the full circle; the sign of sin selects *)
Theorem g3_reflex_angle_recovered (t : R) : 0 <= t < 2 * PI ->
  (if Rlt_dec (sin t) 0 then 2 * PI - acos (cos t) else acos (cos t)) = t.
Proof.
  intros [H0 H2]. destruct (Rle_lt_dec t PI) as [Hle | Hgt].
  - pose proof (sin_ge_0 t H0 Hle). destruct (Rlt_dec (sin t) 0); [lra|]. apply acos_cos. lra.
  - pose proof (sin_lt_0 t Hgt H2). destruct (Rlt_dec (sin t) 0); [|lra].
    replace (cos t) with (cos (2 * PI - t)) by (rewrite cos_minus, cos_2PI, sin_2PI; ring).
    rewrite acos_cos; lra.
Qed.

(* in the (left-handed) north-east-up frame of a point, with the vertical FV = up and horizontal unit vectors at
   azimuths al, ar:  VL = FV x FL, VR = FV x FR  satisfy  VL . VR = cos (ar - al)  and  (VL x VR) . FV = - sin (ar - al):
   the triple product the code tests is positive exactly for reflex angles *)
Definition v3 := (R * R * R)%type.
Definition cross (a b : v3) : v3 :=
  let '(a1, a2, a3) := a in let '(b1, b2, b3) := b in (a2 * b3 - a3 * b2, a3 * b1 - a1 * b3, a1 * b2 - a2 * b1).
Definition dot (a b : v3) : R := let '(a1, a2, a3) := a in let '(b1, b2, b3) := b in a1 * b1 + a2 * b2 + a3 * b3.
Definition north b l : v3 := (- sin b * cos l, - sin b * sin l, cos b).
Definition east (b l : R) : v3 := (- sin l, cos l, 0).
Definition up b l : v3 := (cos b * cos l, cos b * sin l, sin b).
Definition horiz b l a : v3 :=
  let '(n1, n2, n3) := north b l in let '(e1, e2, e3) := east b l in
  (cos a * n1 + sin a * e1, cos a * n2 + sin a * e2, cos a * n3 + sin a * e3).

Theorem g3_angle_triple_product b l al ar :
  let VL := cross (up b l) (horiz b l al) in let VR := cross (up b l) (horiz b l ar) in
  dot VL VR = cos (ar - al) /\ dot (cross VL VR) (up b l) = - sin (ar - al).
Proof.
  unfold cross, dot, horiz, up, north, east. rewrite cos_minus, sin_minus.
  split; ring [(cos_sq b) (cos_sq l)].
Qed.

(* approximate coordinates from a vector with antenna heights (Init::visit of a Vector): the vector joins the
   antennas; with one common vertical w the missing end is recovered exactly *)
Theorem g3_vector_init_exact (pf pt w d : v3) (hf ht : R) :
  let '(f1, f2, f3) := pf in let '(t1, t2, t3) := pt in let '(w1, w2, w3) := w in let '(d1, d2, d3) := d in
  d1 = (t1 + w1 * ht) - (f1 + w1 * hf) -> d2 = (t2 + w2 * ht) - (f2 + w2 * hf) -> d3 = (t3 + w3 * ht) - (f3 + w3 * hf) ->
  (f1 + w1 * (hf - ht)) + d1 = t1 /\ (f2 + w2 * (hf - ht)) + d2 = t2 /\ (f3 + w3 * (hf - ht)) + d3 = t3 /\
  (t1 + w1 * (ht - hf)) - d1 = f1 /\ (t2 + w2 * (ht - hf)) - d2 = f2 /\ (t3 + w3 * (ht - hf)) - d3 = f3.
Proof.
  destruct pf as [[f1 f2] f3], pt as [[t1 t2] t3], w as [[w1 w2] w3], d as [[d1 d2] d3]. lra.
Qed.

Theorem g3_vector_init_without_heights_refuted :
  exists (f t w d hf ht : R), d = (t + w * ht) - (f + w * hf) /\ f + d <> t.
Proof. exists 0, 10, 1, 12, 0, 2. split; lra. Qed.

Lemma neu_frame_is_orthonormal b l :
  dot (north b l) (north b l) = 1 /\ dot (east b l) (east b l) = 1 /\ dot (up b l) (up b l) = 1 /\
  dot (north b l) (east b l) = 0 /\ dot (north b l) (up b l) = 0 /\ dot (east b l) (up b l) = 0.
Proof. unfold dot, north, east, up. repeat split; ring [(cos_sq b) (cos_sq l)]. Qed.

Lemma rotation_preserves_length b l (x y z : R) :
  let v := (x, y, z) in
  (dot (north b l) v) ^ 2 + (dot (east b l) v) ^ 2 + (dot (up b l) v) ^ 2 = x ^ 2 + y ^ 2 + z ^ 2.
Proof. unfold dot, north, east, up. ring [(cos_sq b) (cos_sq l)]. Qed.
