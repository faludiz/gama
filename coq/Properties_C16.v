(* C16 -- sparse kernels equal their dense definitions: property theorems only. *)
From mathcomp Require Import all_ssreflect all_fingroup ssralg ssrnum matrix.
From Gama Require Import LsqSpec.
Import GRing.Theory Num.Theory.
Local Open Scope ring_scope.

(* the exact zeros on dependent pivots: in a Gram matrix N = A'A a vanishing diagonal entry means the whole column of A
   vanishes, hence the whole row and column of N are exactly zero (the Schur complements of a Gram matrix are Gram
   matrices again, so the same holds at every elimination step) *)
Theorem C16_zero_pivot_has_zero_row (F : realFieldType) (m n : nat) (A : 'M[F]_(m,n)) (k : 'I_n) :
  (A^T *m A) k k = 0 -> (forall i, A i k = 0) /\ (forall j, (A^T *m A) k j = 0) /\ (forall j, (A^T *m A) j k = 0).
Proof.
rewrite gram_diag => H0.
have Hcol i : A i k = 0.
  apply/eqP; rewrite -sqrf_eq0; apply/eqP.
  by apply: (psumr_eq0P _ H0) => // r _; apply: sqr_ge0.
split=> //; split=> j; rewrite mxE; apply: big1 => r _; rewrite !mxE.
- by rewrite Hcol mul0r.
- by rewrite Hcol mulr0.
Qed.
Print Assumptions C16_zero_pivot_has_zero_row.

(* reordering the unknowns by a permutation: the permuted normal matrix is the normal matrix of the permuted design, and
   solutions correspond (what the envelope solves is the original system) *)
Theorem C16_ordering_is_a_similarity (F : fieldType) (m n : nat) (A : 'M[F]_(m,n)) (s : {perm 'I_n}) (x b : 'cV[F]_n) :
  let Pm : 'M[F]_n := perm_mx s in
  (A *m Pm^T)^T *m (A *m Pm^T) = Pm *m (A^T *m A) *m Pm^T /\
  ((A^T *m A) *m x = b -> (Pm *m (A^T *m A) *m Pm^T) *m (Pm *m x) = Pm *m b).
Proof.
move=> Pm; split; first by rewrite trmx_mul trmxK !mulmxA.
by move=> <-; rewrite -!mulmxA (mulKmx1 (perm_mx_orth F s)).
Qed.
Print Assumptions C16_ordering_is_a_similarity.

Theorem C16_transpose_preserves_entries (F : fieldType) (m n : nat) (A : 'M[F]_(m,n)) i j : A^T j i = A i j /\ A^T^T = A.
Proof. by split; [rewrite mxE | rewrite trmxK]. Qed.

(* the envelope storage loses nothing: L D L' by successive Schur complements (Envelope::cholDec) creates no entry to the
   left of the first non-zero of a row -- the strictly lower part of L vanishes outside the profile of A (CholProofs.v) *)
From Gama Require Import CholProofs.
Theorem C16_ldl_stays_in_the_envelope (F : fieldType) (n : nat) (f : nat -> nat) (A : 'M[F]_n.+1) :
  in_profile f A -> forall i j : 'I_n.+1, (j < f i)%N -> (j < i)%N -> (ldl A).1 i j = 0.
Proof. exact: ldl_L_in_envelope. Qed.
Print Assumptions C16_ldl_stays_in_the_envelope.
