(* C16: the column graph model is a simple undirected graph; the judges of the ordering. *)
From Coq Require Import List Bool Arith Lia.
From Gama Require Import SparseRun.
Import ListNotations.

Lemma share_row_sym A i j : share_row A i j = share_row A j i.
Proof. unfold share_row. induction A as [|r A IH]; cbn; [reflexivity|]. rewrite IH. f_equal. apply andb_comm. Qed.

Lemma nth_map_seq {B} (f : nat -> B) n i d : (i < n)%nat -> nth i (map f (seq 0 n)) d = f i.
Proof.
  intro H. rewrite nth_indep with (d' := f 0%nat) by (rewrite map_length, seq_length; exact H).
  rewrite map_nth. rewrite seq_nth by exact H. reflexivity.
Qed.

Theorem graph_entry A n i j : (i < n)%nat -> (j < n)%nat ->
  nth j (nth i (graph_of A n) []) 0%nat = if negb (Nat.eqb i j) && share_row A i j then 1%nat else 0%nat.
Proof.
  intros Hi Hj. unfold graph_of. rewrite !nth_map_seq by assumption. reflexivity.
Qed.

Theorem graph_symmetric A n i j : (i < n)%nat -> (j < n)%nat ->
  nth j (nth i (graph_of A n) []) 0%nat = nth i (nth j (graph_of A n) []) 0%nat.
Proof.
  intros Hi Hj. rewrite !graph_entry by assumption. rewrite (share_row_sym A j i), (Nat.eqb_sym j i). reflexivity.
Qed.

Theorem graph_no_loops A n i : (i < n)%nat -> nth i (nth i (graph_of A n) []) 0%nat = 0%nat.
Proof. intro Hi. rewrite graph_entry by assumption. rewrite Nat.eqb_refl. reflexivity. Qed.

(* the judges of the ordering mean what they say: `is_perm n p` accepts exactly the rearrangements of 1..n, and
   `inverse_ok p ip` says that ip undoes p position by position *)
From Coq Require Import Permutation.

Lemma existsb_eqb_In k p : existsb (Nat.eqb k) p = true <-> In k p.
Proof.
  induction p as [|a p IH]; cbn; [intuition discriminate|].
  rewrite orb_true_iff, Nat.eqb_eq, IH. intuition.
Qed.

Theorem is_perm_Permutation n p : is_perm n p = true <-> Permutation (seq 1 n) p.
Proof.
  unfold is_perm. rewrite andb_true_iff, Nat.eqb_eq, forallb_forall. split.
  - intros [Hl Hall]. apply NoDup_Permutation_bis; [apply seq_NoDup | rewrite seq_length; lia |].
    intros k Hk. apply existsb_eqb_In, Hall, Hk.
  - intro H. split; [rewrite <- (Permutation_length H); apply seq_length|].
    intros k Hk. apply existsb_eqb_In, (Permutation_in _ H), Hk.
Qed.

Corollary is_perm_NoDup n p : is_perm n p = true -> NoDup p /\ (forall k, In k p <-> 1 <= k <= n)%nat.
Proof.
  intro H. apply is_perm_Permutation in H. split.
  - apply (Permutation_NoDup H), seq_NoDup.
  - intro k. rewrite <- H, in_seq. lia.
Qed.

Theorem inverse_ok_spec p ip : inverse_ok p ip = true ->
  forall i, (i < length p)%nat -> nth (nth i p 0%nat - 1) ip 0%nat = S i.
Proof.
  unfold inverse_ok. intros H i Hi. rewrite forallb_forall in H.
  apply Nat.eqb_eq. apply H. apply in_seq. lia.
Qed.

(* hence an accepted pair (p, ip) is a bijection with its inverse: p is injective on positions *)
Corollary inverse_ok_injective p ip i j : inverse_ok p ip = true -> (i < length p)%nat -> (j < length p)%nat ->
  nth i p 0%nat = nth j p 0%nat -> i = j.
Proof.
  intros H Hi Hj E. pose proof (inverse_ok_spec p ip H i Hi) as A.
  rewrite E, (inverse_ok_spec p ip H j Hj) in A. now injection A.
Qed.
