(* C06 -- consistent observations reproduce the network they were derived from: property theorems only
   (linear-algebra core; the observation functions themselves are in LinProofs.v / Properties_C05.v). *)
From mathcomp Require Import all_ssreflect ssralg ssrnum matrix.
From Gama Require Import LsqSpec.
Import GRing.Theory.
Local Open Scope ring_scope.

(* at the true coordinates every right-hand side is zero (Properties_C05: rhs = observed - computed); then the
   zero correction is a minimiser with zero residuals and zero sum of squares ... *)
Theorem C06_truth_needs_no_correction (F : realFieldType) (m n : nat) (A : 'M[F]_(m,n)) (P : 'M[F]_m) :
  normal_eq A P 0 0 /\ res A (0 : 'cV[F]_m) 0 = 0 /\ wss A P 0 0 = 0.
Proof. exact: (zero_rhs_zero_solution A P (erefl _)). Qed.
Print Assumptions C06_truth_needs_no_correction.

(* ... and every other minimiser has zero residuals too, and differs from zero only by a datum transformation:
   the truth is a fixed point of the linearise - solve - update iteration, for every algorithm *)
Theorem C06_consistent_data_zero_residuals (F : realFieldType) (m n : nat) (A : 'M[F]_(m,n)) (P : 'M[F]_m)
  (x : 'cV[F]_n) : P^T = P -> psd P -> pd P -> normal_eq A P 0 x -> res A 0 x = 0 /\ A *m x = 0.
Proof.
(* a zero right-hand side is a stationary point *)
by move=> _ _ Pd Hx; have := zero_minimiser Pd (mulmx0 _ _) Hx; rewrite oppr0.
Qed.
Print Assumptions C06_consistent_data_zero_residuals.

(* a determined network (trivial null space) then returns exactly the zero correction *)
Corollary C06_determined_network_returns_truth (F : realFieldType) (m n : nat) (A : 'M[F]_(m,n)) (P : 'M[F]_m)
  (x : 'cV[F]_n) : P^T = P -> psd P -> pd P -> (forall g : 'cV[F]_n, A *m g = 0 -> g = 0) ->
  normal_eq A P 0 x -> x = 0.
Proof. by move=> Ps Pp Pd Hdet Hx; apply: Hdet; have [] := @C06_consistent_data_zero_residuals _ _ _ _ _ _ Ps Pp Pd Hx. Qed.
Print Assumptions C06_determined_network_returns_truth.

(* approximate heights from a zenith angle: the line of sight joins instrument and target, so with Delta the height
   difference along it (d cot z or s cos z) the marks differ by Delta + from_dh - to_dh -- the relation the repaired
   ApproximateHeights / AcordZderived use (they had dropped the two heights) *)
From mathcomp Require Import ring.
Theorem C06_height_difference_of_the_marks (F : realFieldType) (z_from z_to from_dh to_dh delta : F) :
  (z_to + to_dh) - (z_from + from_dh) = delta -> z_to - z_from = delta + from_dh - to_dh.
Proof. by move=> <-; ring. Qed.
Print Assumptions C06_height_difference_of_the_marks.
