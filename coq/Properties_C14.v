(* C14 -- exclusions are reported and equal to deleting the excluded items: property theorems only. *)
From mathcomp Require Import all_ssreflect ssralg ssrnum matrix.
From Gama Require Import LsqSpec.
Import Order.POrderTheory Num.Theory.
Local Open Scope ring_scope.

(* Leaving observations out = giving them weight zero = deleting their rows: with a 0/1 selection matrix E of the
   rows that stay (E idempotent, symmetric, commuting with the weights of the clusters concerned), the normal
   equations of the selected sub-system are those of the full system with weights E P E. *)
Theorem C14_excluding_rows_equals_deleting_them (F : realFieldType) (m n : nat) (A : 'M[F]_(m,n)) (P E : 'M[F]_m)
  (b : 'cV[F]_m) (x : 'cV[F]_n) : E^T = E -> E *m E = E ->
  (normal_eq (E *m A) P (E *m b) x <-> normal_eq A (E *m P *m E) b x).
Proof.
by move=> Es _; rewrite normal_eq_row Es.
Qed.
Print Assumptions C14_excluding_rows_equals_deleting_them.

(* the rule for gross absolute terms: an observation is excluded exactly when its positional misclosure exceeds tol-abs;
   for an angular observation the misclosure is |rhs| (cc) * distance / (10 * 200/pi) in millimetres, and this is
   monotone in |rhs|: a larger absolute term is never kept when a smaller one is excluded *)
Definition angular_misclosure {F : realFieldType} (rhs d rho10 : F) : F := `|rhs| * d / rho10.
Theorem C14_exclusion_rule_monotone (F : realFieldType) (r1 r2 d rho10 tol : F) :
  0 <= d -> 0 < rho10 -> `|r1| <= `|r2| ->
  tol < angular_misclosure r1 d rho10 -> tol < angular_misclosure r2 d rho10.
Proof.
move=> Hd Hr H12 H1; apply: (lt_le_trans H1); rewrite /angular_misclosure.
by rewrite ler_pmul2r ?invr_gt0 // ler_wpmul2r.
Qed.
Print Assumptions C14_exclusion_rule_monotone.
