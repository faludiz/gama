(* C20, recorded finding  svd-lindep-flags-singular-value-index:  SVD::lindep(i) reports  inv_W(i) == 0, i.e. whether the
   i-th SINGULAR VALUE vanishes; the caller reads it as "unknown i is linearly dependent".  The index of a vanishing
   singular value says nothing about the unknown with the same index: for A = [[0, 1], [0, 0]] = U W V' with U = 1,
   W = diag (1, 0), V the exchange matrix, the vanishing singular value is the second, while the dependent unknown (zero
   column, null vector e1) is the first and the second unknown is determined (A e2 <> 0).  The file also holds the lemmas for computing with
   2 x 2 matrices that FrameProofs.v uses. *)
(* finalg is imported for its canonical structures only: with it the 0 of 'I_2 in `delta_mx 0 0` is read through the
   finite-ring structure, without it through Zp_zmodType; both files compile either way, the statements differ (here and
   in Properties_C20.v) *)
From mathcomp Require Import all_ssreflect ssralg ssrnum finalg zmodp matrix.
Import GRing.Theory.
Local Open Scope ring_scope.

Section R.
Variable F : realFieldType.
(* A = U W V'  with  U = 1,  W = diag (1, 0),  V = the exchange matrix:  A = [[0, 1], [0, 0]] *)
Definition Aex : 'M[F]_2 := \matrix_(i, j) ((nat_of_ord i == 0%N) && (nat_of_ord j == 1%N))%:R.
Definition Wex : 'M[F]_2 := \matrix_(i, j) ((nat_of_ord i == 0%N) && (nat_of_ord j == 0%N))%:R.
Definition Vex : 'M[F]_2 := \matrix_(i, j) (nat_of_ord i != nat_of_ord j)%:R.

Lemma two (i : 'I_2) : i = 0 \/ i = 1.
Proof.
case: i => [[|[|k]] Hk] //; [left|right]; exact/val_inj.
Qed.

Lemma eq_mx2 (M N : 'M[F]_2) :
  M 0 0 = N 0 0 -> M 0 1 = N 0 1 -> M 1 0 = N 1 0 -> M 1 1 = N 1 1 -> M = N.
Proof. by move=> *; apply/matrixP=> i j; case: (two i)=> ->; case: (two j)=> ->. Qed.

Lemma mulmx2 p q (M : 'M[F]_(p,2)) (N : 'M[F]_(2,q)) i j : (M *m N) i j = M i 0 * N 0 j + M i 1 * N 1 j.
Proof. by rewrite mxE !big_ord_recl big_ord0 addr0; congr (_ + M _ _ * N _ _); exact/val_inj. Qed.

(* rewrite set that evaluates sums and products of the entries 0 and 1 *)
Definition simp01 := (@mul0r F, @mulr0 F, @mul1r F, @mulr1 F, @add0r F, @addr0 F).

Lemma svd_index_is_not_the_unknown :
  [/\ Aex = 1%:M *m Wex *m Vex^T, Vex^T *m Vex = 1%:M, Wex 1 1 = 0,
      Aex *m delta_mx 0 0 = (0 : 'cV_2) & Aex *m delta_mx 1 0 != (0 : 'cV_2)].
Proof.
split.
- by rewrite mul1mx; apply: eq_mx2; rewrite mulmx2 !mxE /= ?simp01.
- by apply: eq_mx2; rewrite mulmx2 !mxE /= ?simp01.
- by rewrite !mxE.
- by rewrite -colE; apply/colP=> i; rewrite !mxE andbF.
- by rewrite -colE; apply/eqP=> /colP /(_ 0) /eqP; rewrite !mxE oner_eq0.
Qed.
End R.
