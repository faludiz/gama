(* C10: band storage of symmetric matrices (CovMat, BlockDiagonal) and the sub-matrix of active observations. *)
From Coq Require Import List Lia ZArith.
Import ListNotations.

(* strictly increasing index lists (the positions of the active observations inside a cluster) *)
Fixpoint increasing (l : list nat) : Prop :=
  match l with
  | [] => True
  | a :: r => match r with [] => True | b :: _ => a < b /\ increasing r end
  end.

Lemma increasing_tail a l : increasing (a :: l) -> increasing l.
Proof. destruct l as [|b l]; cbn; [trivial | tauto]. Qed.

(* positions grow at least as fast as ranks: idx_j - idx_i >= j - i *)
Lemma increasing_gap l i j : increasing l -> i <= j -> j < length l -> nth i l 0 + (j - i) <= nth j l 0.
Proof.
  revert i j. induction l as [|a l IH]; intros i j Hinc Hij Hj; [cbn in Hj; lia|].
  destruct j as [|j]; [replace i with 0 by lia; lia|].
  (* with a second element in sight, `increasing` is a conjunction; the induction hypothesis is used at rank 0 or at rank i *)
  destruct l as [|b l]; [cbn in Hj; lia|]. destruct Hinc as [Hab Hinc].
  destruct i as [|i]; [specialize (IH 0 j Hinc) | specialize (IH i j Hinc)]; cbn in *; lia.
Qed.

Section ActiveCov.
Variable T : Type.
Variable zero : T.
Variable cov : nat -> nat -> T.        (* the cluster covariance matrix, by position *)
Variable band : nat.
Hypothesis cov_banded : forall p q, band < q - p -> cov p q = zero.   (* p <= q side; symmetric storage *)

(* the matrix handed to the adjustment: entry (i, j), i <= j, of the active observations *)
Definition active_cov (idx : list nat) (i j : nat) : T := cov (nth i idx 0) (nth j idx 0).

(* Cluster::activeCov copies only |i - j| <= band: nothing is lost, every other entry of the true sub-matrix is zero *)
Theorem active_band_suffices idx i j :
  increasing idx -> i <= j -> j < length idx -> band < j - i -> active_cov idx i j = zero.
Proof.
  intros Hinc Hij Hj Hb. unfold active_cov. apply cov_banded.
  pose proof (increasing_gap idx i j Hinc Hij Hj). lia.
Qed.
End ActiveCov.

(* packed storage: row r (0-based) of the upper band holds min(band, dim-1-r)+1 entries; the address computed by
   CovMat::operator[] -- r*(band+1) minus a triangular number once the rows get shorter -- is the sum of the
   lengths of the preceding rows (C10_packed_size asks for band < dim, which the parsers enforce and CovMat does not; the
   identities below hold without it) *)
Local Open Scope Z_scope.
Definition row_len (dim band r : Z) : Z := Z.min band (dim - 1 - r) + 1.
Definition covmat_offset2 (dim band r : Z) : Z :=       (* twice the offset, to stay in Z without division *)
  let t := r - (dim - band) in
  2 * r * (band + 1) - (if 0 <? t then t * (t + 1) else 0).

Theorem covmat_offset_step dim band r :
  covmat_offset2 dim band (r + 1) = covmat_offset2 dim band r + 2 * row_len dim band r.
Proof.
  unfold covmat_offset2, row_len.
  (* past row dim - band every row is one shorter: t grows by one, and (t+1)(t+2) - t(t+1) = 2(t+1) *)
  destruct (0 <? r + 1 - (dim - band)) eqn:E1; destruct (0 <? r - (dim - band)) eqn:E2;
    try lia; nia.
Qed.

Theorem covmat_offset_zero dim band : covmat_offset2 dim band 0 = 0 \/ dim - band < 0.
Proof. unfold covmat_offset2. destruct (0 <? 0 - (dim - band)) eqn:E; [right; lia | left; lia]. Qed.

(* total number of stored elements: dim*(band+1) - band*(band+1)/2 *)
Theorem covmat_size dim band : 0 <= band -> covmat_offset2 dim band dim = 2 * dim * (band + 1) - band * (band + 1).
Proof.
  intro H. unfold covmat_offset2. replace (dim - (dim - band)) with band by lia.
  destruct (Z.ltb_spec 0 band); lia.
Qed.
