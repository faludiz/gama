(* C18: geodetic primitives (Reals / Z); cos_sq and polar_sq also serve LinProofs and G3Proofs. *)
From Coq Require Import Reals Lra Lia.
Local Open Scope R_scope.

(* used as [ring [(cos_sq x)]], [field [(cos_sq x)]]: ring modulo cos^2 = 1 - sin^2 *)
Lemma cos_sq x : cos x ^ 2 = 1 - sin x ^ 2.
Proof. rewrite <- !Rsqr_pow2. apply cos2. Qed.

Lemma polar_sq d s : (d * cos s) ^ 2 + (d * sin s) ^ 2 = d ^ 2.
Proof. ring [(cos_sq s)]. Qed.

(* bearing / distance: (s, d) with d cos s = dx, d sin s = dy.  Swapping the end points turns the bearing by pi and
   keeps the distance *)
Theorem bearing_antisymmetric s d dx dy :
  d * cos s = dx -> d * sin s = dy -> d * cos (s + PI) = - dx /\ d * sin (s + PI) = - dy.
Proof. intros Hc Hs. rewrite neg_cos, neg_sin. split; lra. Qed.

Theorem bearing_distance_consistent s d dx dy :
  0 <= d -> d * cos s = dx -> d * sin s = dy -> d = sqrt (dx ^ 2 + dy ^ 2).
Proof. intros Hd <- <-. rewrite polar_sq, sqrt_pow2; trivial. Qed.

(* geodetic -> Cartesian: with N = A / sqrt (1 - e2 sin^2 b) and B^2 = A^2 (1 - e2), the point computed for h = 0 lies
   on the ellipsoid x^2/A^2 + y^2/A^2 + z^2/B^2 = 1 *)
Theorem blh2xyz_on_ellipsoid A e2 b l :
  0 < A -> 0 <= e2 < 1 ->
  let W := sqrt (1 - e2 * (sin b) ^ 2) in let N := A / W in
  let x := N * cos b * cos l in let y := N * cos b * sin l in let z := N * (1 - e2) * sin b in
  (x ^ 2 + y ^ 2) / A ^ 2 + z ^ 2 / (A ^ 2 * (1 - e2)) = 1.
Proof.
  intros HA He W N x y z.
  assert (Hw : 0 < 1 - e2 * sin b ^ 2) by (pose proof (cos_sq b); pose proof (pow2_ge_0 (cos b)); nra).
  pose proof (sqrt_lt_R0 _ Hw).
  unfold x, y. rewrite polar_sq. unfold z, N, W. field [(pow2_sqrt _ (Rlt_le _ _ Hw)) (cos_sq b)]. lra.
Qed.

(* the height is recovered exactly from the true latitude: p = (N + h) cos b *)
Theorem height_formula_exact N h cb p : cb <> 0 -> p = (N + h) * cb -> p / cb - N = h.
Proof. intros Hc ->. field. exact Hc. Qed.

(* sexagesimal fields of a non-negative angle given as a whole number T of units u = 10^prec per arcsecond:
   the decomposition by integer division has valid field ranges and reproduces T (this is what the carry in
   gon2deg restores) *)
Local Open Scope Z_scope.
Lemma div_mod_two T a b : 0 < a -> 0 < b -> T = (T / (a * b) * b + (T / a) mod b) * a + T mod a.
Proof.
  intros Ha Hb. rewrite <- Z.div_div, (Z.mul_comm _ b), <- Z.div_mod, Z.mul_comm by lia. apply Z.div_mod; lia.
Qed.

Theorem dms_fields_in_range (T u : Z) : 0 <= T -> 0 < u ->
  let d := T / (3600 * u) in let m := (T / (60 * u)) mod 60 in let s := T mod (60 * u) in
  0 <= d /\ 0 <= m < 60 /\ 0 <= s < 60 * u /\ T = (d * 3600 + m * 60) * u + s.
Proof.
  intros HT Hu d m s. assert (Hu' : 0 < 60 * u) by lia.
  split; [apply Z.div_pos; lia|]. do 2 (split; [now apply Z.mod_pos_bound|]).
  pose proof (div_mod_two T (60 * u) 60 Hu'). unfold d. replace (3600 * u) with (60 * u * 60); lia.
Qed.

(* A point of the meridian ellipse is (p, z) = (a cos u, b sin u), u its parametric latitude; its geodetic latitude phi
   satisfies tan phi = (a / b) tan u.  Ellipsoid::xyz2blh computes tan u = (a/b) z/p -- exact for h = 0 -- and then
   atan2 (z + e'^2 b sin^3 u, p - e^2 a cos^3 u); the two arguments are in the ratio (a sin u) : (b cos u), i.e. the
   formula returns phi exactly for every point of the ellipsoid (the truncation error appears only with the height). *)
Local Open Scope R_scope.
Theorem bowring_exact_on_the_ellipsoid (a b u : R) : 0 < a -> 0 < b ->
  let e2 := (a * a - b * b) / (a * a) in
  let e22 := (a * a - b * b) / (b * b) in
  let p := a * cos u in let z := b * sin u in
  (z + e22 * b * (sin u * sin u) * sin u) * (b * cos u) = (p - e2 * a * (cos u * cos u) * cos u) * (a * sin u).
Proof. intros Ha Hb. cbv zeta. field [(cos_sq u)]. lra. Qed.

(* the parametric latitude the code starts from is the true one when h = 0 *)
Theorem bowring_parametric_latitude_exact (a b u : R) : 0 < a -> 0 < b -> cos u <> 0 ->
  a / b * (b * sin u) / (a * cos u) = tan u.
Proof. intros Ha Hb Hc. unfold tan. field. repeat split; lra. Qed.
